(* EmitWellFormed.v — property C17 assembled: for every well-formed object whose
   ordinates are real values (finite or NaN/Inf, no out-of-range read of the z/m
   array) and whose stored member texts are JSON, and for every number formatter
   that prints JSON numbers, the bytes of JSON() / AppendJSON are a text of the
   JSON grammar for an object whose first member is "type": <the kind's name>. *)
From GJ Require Import Base JsonConst Json JsonProofs EmitProofs JsonGrammar.
Open Scope Z_scope.

Section Emit.
Variable fmt : Z -> list Z.
Hypothesis fmt_number : forall k, num_lexeme (fmt k) = true.

Definition total_points (rings : list (list fpt)) : nat := fold_right (fun r acc => (length r + acc)%nat) 0%nat rings.

Fixpoint lex_o (o : gobj) : Prop :=
  match o with
  | JPoint p ex => fpt_ok p /\ values_ok ex 1 /\ members_lex ex
  | JSimple p => fpt_ok p
  | JRect mn mx => fpt_ok mn /\ fpt_ok mx
  | JLine ps ex => Forall fpt_ok ps /\ values_ok ex (length ps) /\ members_lex ex
  | JPoly rings ex => Forall (Forall fpt_ok) rings /\ values_ok ex (total_points rings) /\ members_lex ex
  | JFeature b ex => lex_o b /\ members_lex ex
  | JColl k cs ex => members_lex ex /\ (fix all (l : list gobj) : Prop := match l with [] => True | c :: r => lex_o c /\ all r end) cs
  | JCircle c m => fpt_ok c /\ m <> FBad
  end.

Lemma extra_members_lex (ex : option extra) (props : bool) : members_lex ex ->
  forallb (fun kv : list Z * list Z * jv => str_body (fst (fst kv)) && lex_ok (snd kv)) (extra_members ex props) = true.
Proof.
  intros H. unfold extra_members.
  assert (P : forallb (fun kv : list Z * list Z * jv => str_body (fst (fst kv)) && lex_ok (snd kv)) [props_member] = true) by reflexivity.
  destruct ex as [e|]; [|destruct props; [exact P|reflexivity]].
  cbn [members_lex] in H. destruct (members e) as [ms|]; [|destruct props; [exact P|reflexivity]].
  cbn [lex_ok] in H. rewrite forallb_app. apply andb_true_iff. split; [exact H|].
  destruct props; [|reflexivity].
  destruct (first_member s_properties ms); [reflexivity|exact P].
Qed.

Lemma rings_jv_lex (rings : list (list fpt)) (ex : option extra) (n : nat) : forall pidx,
  Forall (Forall fpt_ok) rings -> values_ok ex n -> (pidx + total_points rings <= n)%nat ->
  forallb lex_ok (rings_jv fmt rings ex pidx) = true.
Proof.
  induction rings as [|r rest IH]; intros pidx Hr Hv Hn; [reflexivity|].
  cbn [rings_jv forallb]. inversion Hr; subst. cbn [total_points fold_right] in Hn.
  rewrite (series_jv_lex fmt fmt_number r ex pidx n) by (assumption || (fold (total_points rest) in Hn; lia)).
  apply IH; [assumption|assumption|fold (total_points rest) in Hn; lia].
Qed.

Lemma rect_points_ok (mn mx : fpt) : fpt_ok mn -> fpt_ok mx -> Forall fpt_ok (fpt_rect_points mn mx).
Proof. intros [A B] [C D]. unfold fpt_rect_points. repeat constructor; cbn [fst snd]; assumption. Qed.

Lemma coords_jv_lex (c : gobj) : lex_o c -> multi_child_ok c -> lex_ok (coords_jv fmt c) = true.
Proof.
  destruct c as [p ex|p|mn mx|ps ex|rings ex|b ex|k cs ex|c m]; cbn [lex_o multi_child_ok coords_jv]; intros H Hm; try contradiction.
  - destruct H as (Hp & Hv & _). apply (point_jv_lex fmt fmt_number p ex 0 1); [assumption|assumption|lia].
  - apply (point_jv_lex fmt fmt_number p None 0 1); [assumption|exact I|lia].
  - destruct H as [A B]. cbn [lex_ok forallb]. rewrite (series_jv_lex fmt fmt_number _ None 0 5); [reflexivity| |exact I|cbn; lia].
    apply rect_points_ok; assumption.
  - destruct H as (Hp & Hv & _). apply (series_jv_lex fmt fmt_number ps ex 0 (length ps)); [assumption|assumption|lia].
  - destruct H as (Hp & Hv & _). cbn [lex_ok]. destruct (rings_empty rings); [reflexivity|].
    apply (rings_jv_lex rings ex (total_points rings) 0 Hp Hv). lia.
Qed.

(* an object as the writers lay it out: "type", the kind's own member, the spliced members *)
Lemma obj2_lex (t K : list Z) (v : jv) (ex : option extra) (props : bool) :
  str_body t = true -> str_body K = true -> lex_ok v = true -> members_lex ex ->
  lex_ok (JObj ((key s_type, str_jv t) :: (key K, v) :: extra_members ex props)) = true.
Proof.
  intros Ht HK Hv Hm. cbn [lex_ok forallb key str_jv fst snd]. change (str_body s_type) with true.
  rewrite Ht, HK, Hv. exact (extra_members_lex ex props Hm).
Qed.

Theorem emit_jv_lex (o : gobj) : wf_o o -> lex_o o -> lex_ok (emit_jv fmt o) = true.
Proof.
  induction o as [p ex|p|mn mx|ps ex|rings ex|b ex IH|k cs ex IH|c m] using gobj_ind'; intros Hw Hl; cbn [emit_jv].
  - apply (obj2_lex s_Point s_coordinates _ ex false); [reflexivity|reflexivity|exact (coords_jv_lex (JPoint p ex) Hl Hw)|apply Hl].
  - apply (obj2_lex s_Point s_coordinates _ None false); [reflexivity|reflexivity|exact (coords_jv_lex (JSimple p) Hl Hw)|exact I].
  - apply (obj2_lex s_Polygon s_coordinates _ None false); [reflexivity|reflexivity|exact (coords_jv_lex (JRect mn mx) Hl Hw)|exact I].
  - apply (obj2_lex s_LineString s_coordinates _ ex false); [reflexivity|reflexivity|exact (coords_jv_lex (JLine ps ex) Hl Hw)|apply Hl].
  - apply (obj2_lex s_Polygon s_coordinates _ ex false); [reflexivity|reflexivity|exact (coords_jv_lex (JPoly rings ex) Hl Hw)|apply Hl].
  - destruct Hl as [Hb Hm]. destruct Hw as [_ Hwb].
    apply (obj2_lex s_Feature s_geometry _ ex true); [reflexivity|reflexivity|exact (IH Hwb Hb)|exact Hm].
  - destruct (wf_coll_children k cs ex Hw) as [Hk [He Hc]]. destruct Hl as [Hm Hall]. apply all_Forall in Hall.
    apply (obj2_lex (coll_type k) (coll_key k) _ ex false); [| | |exact Hm].
    + unfold coll_type. destruct (k =? 0), (k =? 1), (k =? 2), (k =? 3); reflexivity.
    + unfold coll_key. destruct (k <? 3), (k =? 3); reflexivity.
    + cbn [lex_ok]. apply forallb_forall. intros v Hv. apply in_map_iff in Hv. destruct Hv as (c & <- & Hin).
      rewrite Forall_forall in IH, Hc, Hall.
      destruct (k <? 3); [apply coords_jv_lex; [apply Hall|apply Hc]; exact Hin|apply IH; [exact Hin|apply Hc; exact Hin|apply Hall; exact Hin]].
  - destruct Hl as [[Cx Cy] Hm]. cbn [lex_ok forallb key str_jv fst snd].
    rewrite !(num_jv_lex fmt fmt_number) by assumption. reflexivity.
Qed.

(* C17: the bytes are a text of the JSON grammar, for an object whose first member is "type":"<name>" *)
Theorem emit_wellformed (o : gobj) : wf_o o -> lex_o o ->
  json_text (emit fmt o) (emit_jv fmt o) /\
  exists rest, emit_jv fmt o = JObj ((key s_type, str_jv (type_name o)) :: rest).
Proof.
  intros Hw Hl. split.
  - rewrite (emit_is_print fmt o Hw). apply print_min_is_json. apply emit_jv_lex; assumption.
  - apply emit_jv_type.
Qed.

End Emit.

Print Assumptions emit_wellformed.
