(* CodecQProofs.v — "compressed segment indexes are exact accelerators",
   quadtree codec: searching the BYTES produced by compressing a quadtree
   (qenc / set_compressed) returns exactly the candidate list (same order) of
   searching the tree itself (qsearch), and every read is in bounds (qcsearch
   returns Some), for every tree of depth <= qMaxDepth whose encoding is
   shorter than 2^32 bytes and whose items lie in [0, 2^32).

   NOTE: qenc, read_items, q_ibytes do not use the section variables
   [mid]/[rect_of] of Index.QTree, hence take no such arguments. *)
From GJ Require Import Base Index ByteCodec QTreeProofs.

Local Open Scope Z_scope.

Section CodecQ.
  (* mid models (a + b) / 2, rect_of the rectangle of a segment: both arbitrary.
     Everything before the search side is independent of them (and is not generalised
     over them when the section closes). *)
  Variable mid : Z -> Z -> Z.
  Variable rect_of : Z -> rect.

Definition okid (P : qnode -> Prop) (o : option qnode) : Prop :=
  match o with None => True | Some c => P c end.

(* well-formed tree of depth <= d: quads has length 4 everywhere, no child
   below depth d *)
Fixpoint qshape (d : nat) (n : qnode) {struct d} : Prop :=
  match n with
  | QNode _ _ quads =>
      length quads = 4%nat /\
      Forall (okid (match d with O => fun _ => False | S d' => qshape d' end)) quads
  end.

(* every item stored anywhere in the tree satisfies P *)
Fixpoint qall (P : Z -> Prop) (n : qnode) {struct n} : Prop :=
  match n with
  | QNode _ items quads =>
      Forall P items /\
      (fix go (l : list (option qnode)) : Prop :=
         match l with
         | [] => True
         | o :: l' => match o with None => True | Some c => qall P c end /\ go l'
         end) quads
  end.

Definition item_ok (it : Z) : Prop := 0 <= it < 2 ^ 32.

Lemma qall_unfold P s items quads :
  qall P (QNode s items quads) <-> Forall P items /\ Forall (okid (qall P)) quads.
Proof.
  cbn [qall]. apply and_iff_compat_l.
  induction quads as [|o l IH]; [split; auto|].
  rewrite Forall_cons_iff, <- IH. destruct o; reflexivity.
Qed.

Lemma qshape_unfold_S d s items quads :
  qshape (S d) (QNode s items quads) <->
  length quads = 4%nat /\ Forall (okid (qshape d)) quads.
Proof. reflexivity. Qed.

Lemma qshape_unfold_O s items quads :
  qshape O (QNode s items quads) <->
  length quads = 4%nat /\ Forall (okid (fun _ => False)) quads.
Proof. reflexivity. Qed.

Lemma okid_impl (P Q : qnode -> Prop) o :
  (forall c, P c -> Q c) -> okid P o -> okid Q o.
Proof. destruct o; cbn; auto. Qed.

Lemma qshape_S d : forall n, qshape d n -> qshape (S d) n.
Proof.
  induction d as [|d IH]; intros [s items quads] [HL HF]; split; try exact HL.
  - eapply Forall_impl; [|exact HF]. intros o. apply okid_impl. intros c [].
  - eapply Forall_impl; [|exact HF]. intros o. apply okid_impl. exact (IH).
Qed.

Lemma qshape_le d d' n : (d <= d')%nat -> qshape d n -> qshape d' n.
Proof. induction 1; auto using qshape_S. Qed.

Lemma read_le_le_bytes data pre post k n a :
  data = pre ++ le_bytes k n ++ post -> a = Z.of_nat (length pre) ->
  0 <= n < 2 ^ (8 * Z.of_nat k) ->
  read_le data a k = Some n.
Proof. intros -> -> Hn. apply (le_step k _ _ n post Hn), at_addr_here. Qed.

(* [nbytes_ok] of ByteCodec under the name the statements here use *)
Definition ib_ok (ib : Z) : Prop := ib = 1 \/ ib = 2 \/ ib = 4.

Lemma num_bytes_cases n :
  0 <= n -> n < 2 ^ 32 ->
  (num_bytes n = 1 \/ num_bytes n = 2 \/ num_bytes n = 4) /\
  n < 2 ^ (8 * width (num_bytes n)).
Proof.
  intros H0 H1. split; [apply num_bytes_ok|].
  rewrite width_ok by apply num_bytes_ok.
  apply fits_le; [lia|apply num_bytes_ok|lia].
Qed.

Lemma q_ibytes_ok items : ib_ok (q_ibytes items).
Proof. apply (maxfold_ok items (num_bytes (Z.of_nat (length items)))), num_bytes_ok. Qed.

Lemma read_num_enc_num data pre post ib n :
  ib_ok ib -> 0 <= n < 2 ^ (8 * ib) -> data = pre ++ enc_num n ib ++ post ->
  read_num data (Z.of_nat (length pre)) ib = Some n.
Proof. intros Hib Hn ->. apply (num_step _ _ n ib post Hib Hn), at_addr_here. Qed.

Lemma read_items_flat_map data pre post ib items :
  ib_ok ib -> Forall (fun x => 0 <= x < 2 ^ (8 * ib)) items ->
  data = pre ++ flat_map (fun it => enc_num it ib) items ++ post ->
  read_items data (Z.of_nat (length pre)) ib (length items) = Some items.
Proof. intros Hib Hall ->. apply (items_step ib items _ _ post Hib Hall), at_addr_here. Qed.

Definition qhdr (items : list Z) : list Z :=
  let ib := q_ibytes items in
  [ib] ++ enc_num (Z.of_nat (length items)) ib ++ enc_items ib items.

Definition slot_len (o : option qnode) : Z :=
  match o with None => 1 | Some _ => 5 end.

Definition slot_of (o : option qnode) (addr : Z) : list Z :=
  match o with None => [0] | Some _ => [1] ++ le_bytes 4 (u32 addr) end.

Definition kid_of (f : nat) (o : option qnode) (addr : Z) : list Z :=
  match o with None => [] | Some c => qenc f addr c end.

Definition qenc_step (f : nat) (st : list Z * list Z * Z) (o : option qnode)
  : list Z * list Z * Z :=
  let '(slots, kids, addr) := st in
  match o with
  | None => (slots ++ [0], kids, addr)
  | Some c =>
      let e := qenc f addr c in
      (slots ++ [1] ++ le_bytes 4 (u32 addr), kids ++ e, addr + Z.of_nat (length e))
  end.

Definition slots_len (quads : list (option qnode)) : Z :=
  fold_left (fun acc o => acc + match o with None => 1 | Some _ => 5 end) quads 0.

Lemma qenc_unsplit f base items quads :
  qenc f base (QNode false items quads) = qhdr items ++ [0].
Proof. destruct f; reflexivity. Qed.

Lemma qenc_split_fold f base items quads :
  qenc (S f) base (QNode true items quads) =
  let start := base + Z.of_nat (length (qhdr items)) + 1 + slots_len quads in
  let '(slots, kids, _) := fold_left (qenc_step f) quads ([], [], start) in
  qhdr items ++ [1] ++ slots ++ kids.
Proof. reflexivity. Qed.

Lemma qenc_step_eq f slots kids addr o :
  qenc_step f (slots, kids, addr) o =
  (slots ++ slot_of o addr, kids ++ kid_of f o addr,
   addr + Z.of_nat (length (kid_of f o addr))).
Proof.
  destruct o; cbn [qenc_step slot_of kid_of]; [reflexivity|].
  cbn [length]. rewrite app_nil_r, Z.add_0_r. reflexivity.
Qed.

Lemma slot_of_length o addr : Z.of_nat (length (slot_of o addr)) = slot_len o.
Proof.
  destruct o; cbn [slot_of slot_len]; [|reflexivity].
  rewrite app_length, le_bytes_length. reflexivity.
Qed.

Lemma slots_len_from f : forall quads a acc,
  fold_left (fun acc o => acc + match o with None => 1 | Some _ => 5 end) quads acc =
  acc + Z.of_nat (length (lay_tbl _ slot_of (kid_of f) a quads)).
Proof.
  induction quads as [|o quads IH]; intros a acc; cbn [fold_left lay_tbl length]; [lia|].
  rewrite (IH (a + Z.of_nat (length (kid_of f o a)))), app_length, Nat2Z.inj_add, slot_of_length.
  destruct o; cbn [slot_len]; lia.
Qed.

Lemma slots_len_tbl f quads a :
  Z.of_nat (length (lay_tbl _ slot_of (kid_of f) a quads)) = slots_len quads.
Proof. unfold slots_len. rewrite (slots_len_from f quads a 0). reflexivity. Qed.

(* explicit layout for a split node: header, the slots, the kids *)
Lemma qenc_layout f base items quads :
  qenc (S f) base (QNode true items quads) =
  let start := base + Z.of_nat (length (qhdr items)) + 1 + slots_len quads in
  qhdr items ++ [1] ++ lay_tbl _ slot_of (kid_of f) start quads
             ++ lay_bodies _ (kid_of f) start quads.
Proof.
  rewrite qenc_split_fold. cbv zeta.
  destruct (lay_fold _ slot_of (kid_of f) (qenc_step f) (qenc_step_eq f) quads [] []
              (base + Z.of_nat (length (qhdr items)) + 1 + slots_len quads)) as [fin E].
  rewrite E. reflexivity.
Qed.

(* the inner [fix slots] of qcsearch as a top-level function *)
Section SlotsSearch.
  Variable quad_bounds_ : rect -> Z -> rect.
  Variable rec : Z -> rect -> option (list Z).
  Variable data : list Z.
  Variables bounds q : rect.

  Fixpoint slots_search (ks : list Z) (a : Z) (acc : list Z) {struct ks}
    : option (list Z) :=
    match ks with
    | [] => Some acc
    | k :: ks' =>
        match byte_at data a with
        | None => None
        | Some use =>
            if use =? 1 then
              match read_le data (a + 1) 4 with
              | None => None
              | Some naddr =>
                  let qb := quad_bounds_ bounds k in
                  if rect_intersects_rect qb q then
                    match rec naddr qb with
                    | None => None
                    | Some r => slots_search ks' (a + 5) (acc ++ r)
                    end
                  else slots_search ks' (a + 5) acc
              end
            else slots_search ks' (a + 1) acc
        end
    end.
End SlotsSearch.

  Definition hits (q : rect) (its : list Z) : list Z :=
    filter (fun it => rect_intersects_rect (rect_of it) q) its.

  Lemma qcsearch_S f data addr bounds q :
    qcsearch mid rect_of (S f) data addr bounds q =
    match byte_at data addr with
    | None => None
    | Some ib =>
        match read_num data (addr + 1) ib with
        | None => None
        | Some nitems =>
            match read_items data (addr + 1 + ib) ib (Z.to_nat nitems) with
            | None => None
            | Some its =>
                match byte_at data (addr + 1 + ib + nitems * ib) with
                | None => None
                | Some sp =>
                    if sp =? 1 then
                      slots_search (quad_bounds mid)
                        (fun naddr qb => qcsearch mid rect_of f data naddr qb q)
                        data bounds q [0; 1; 2; 3]
                        (addr + 1 + ib + nitems * ib + 1) (hits q its)
                    else Some (hits q its)
                end
            end
        end
    end.
  (* unfolding the fixpoint once by cbn first is much cheaper to check than
     leaving the whole comparison to reflexivity *)
  Proof. cbn [qcsearch]. reflexivity. Qed.

  Lemma hdr_read data base items rest :
    at_addr data base (qhdr items ++ rest) ->
    Z.of_nat (length data) < 2 ^ 32 ->
    Forall item_ok items ->
    let ib := q_ibytes items in
    let L := Z.of_nat (length items) in
    byte_at data base = Some ib /\
    read_num data (base + 1) ib = Some L /\
    read_items data (base + 1 + ib) ib (length items) = Some items /\
    Z.of_nat (length (qhdr items)) = 1 + ib + L * ib /\
    at_addr data (base + 1 + ib + L * ib) rest.
  Proof.
    intros Hat Hlen Hall ib L.
    assert (Hib : ib_ok ib) by apply q_ibytes_ok.
    assert (Hhl : Z.of_nat (length (qhdr items)) = 1 + ib + L * ib).
    { unfold qhdr. fold ib. fold L. rewrite !app_length, !Nat2Z.inj_add.
      rewrite enc_num_length, enc_items_length by assumption. cbn [length]. fold L. lia. }
    pose proof (at_bounds _ _ _ Hat) as [Hbase Hend].
    unfold qhdr in Hat. fold ib L in Hat. rewrite <- !app_assoc in Hat. cbn [app] in Hat.
    destruct (byte_step _ _ _ _ Hat) as [Hb Hat1].
    (* the item count fits: the items themselves lie inside the buffer *)
    assert (HL : 0 <= L < 2 ^ (8 * ib)).
    { split; [unfold L; lia|].
      apply fits_le; [|assumption|apply maxfold_ge_init].
      rewrite app_length, Nat2Z.inj_add, Hhl in Hend.
      destruct Hib as [E|[E|E]]; rewrite E in Hend; lia. }
    destruct (num_step _ _ _ _ _ Hib HL Hat1) as [Hn Hat2].
    destruct (items_step ib items _ _ _ Hib
                (maxfold_fits items _ (num_bytes_ok L) Hall) Hat2) as [Hi Hat3].
    auto.
  Qed.

  Lemma slot_step rec data bounds q f k ks a acc o addr :
    at_addr data a (slot_of o addr) ->
    0 <= addr < 2 ^ 32 ->
    (forall c, o = Some c ->
               rect_intersects_rect (quad_bounds mid bounds k) q = true ->
               rec addr (quad_bounds mid bounds k)
               = Some (qsearch mid rect_of f c (quad_bounds mid bounds k) q)) ->
    slots_search (quad_bounds mid) rec data bounds q (k :: ks) a acc =
    slots_search (quad_bounds mid) rec data bounds q ks (a + slot_len o)
                 (acc ++ ssearch mid rect_of q f bounds o k).
  Proof.
    intros Hat Haddr Hrec. cbn [slots_search].
    destruct o as [c|]; cbn [slot_of slot_len ssearch] in *.
    - cbn [app] in Hat. destruct (byte_step _ _ _ _ Hat) as [Hb Hat1].
      rewrite <- (app_nil_r (le_bytes _ _)) in Hat1.
      rewrite Hb, (proj1 (u32_step _ _ _ _ Haddr Hat1)).
      change (1 =? 1) with true. cbv iota zeta.
      destruct (rect_intersects_rect (quad_bounds mid bounds k) q) eqn:E.
      + rewrite (Hrec c eq_refl eq_refl). reflexivity.
      + rewrite app_nil_r. reflexivity.
    - rewrite (proj1 (byte_step _ _ _ _ Hat)).
      change (0 =? 1) with false. cbv iota.
      rewrite app_nil_r. reflexivity.
  Qed.

  Lemma slot_at data a o addr rest :
    at_addr data a (slot_of o addr ++ rest) ->
    at_addr data a (slot_of o addr) /\ at_addr data (a + slot_len o) rest.
  Proof. intros H. apply at_app in H. rewrite slot_of_length in H. exact H. Qed.

  (* all the slots of a split node, given the result for its children *)
  Lemma slots_search_all rec data bounds q f :
    Z.of_nat (length data) < 2 ^ 32 ->
    forall quads ks a c acc,
      length ks = length quads ->
      at_addr data a (lay_tbl _ slot_of (kid_of f) c quads) ->
      at_addr data c (lay_bodies _ (kid_of f) c quads) ->
      (forall n addr bnds, In (Some n) quads -> at_addr data addr (qenc f addr n) ->
                           rec addr bnds = Some (qsearch mid rect_of f n bnds q)) ->
      slots_search (quad_bounds mid) rec data bounds q ks a acc =
      Some (acc ++ flat_map (fun ok => ssearch mid rect_of q f bounds (fst ok) (snd ok))
                            (combine quads ks)).
  Proof.
    intros Hlen. induction quads as [|o quads IH]; intros [|k ks] a c acc Hl Ha Hb Hrec;
      try discriminate Hl.
    - cbn [slots_search combine flat_map]. rewrite app_nil_r. reflexivity.
    - cbn [lay_tbl lay_bodies] in Ha, Hb.
      destruct (slot_at _ _ _ _ _ Ha) as [Hs Ha']. destruct (at_app _ _ _ _ Hb) as [He Hb'].
      rewrite (slot_step rec data bounds q f k ks a acc o c Hs (addr_in_u32 _ _ _ He Hlen)).
      + rewrite (IH ks _ _ _ (eq_add_S _ _ Hl) Ha' Hb');
          [|intros n addr bnds Hin; apply Hrec; right; exact Hin].
        cbn [combine flat_map fst snd]. rewrite app_assoc. reflexivity.
      + intros n -> _. apply Hrec; [left; reflexivity|exact He].
  Qed.

  (* one node, given the result for its children *)
  Lemma qcsearch_node F f data base bounds q s items o0 o1 o2 o3 :
    Z.of_nat (length data) < 2 ^ 32 ->
    Forall item_ok items ->
    at_addr data base (qenc (S f) base (QNode s items [o0; o1; o2; o3])) ->
    (forall c a bnds, In (Some c) [o0; o1; o2; o3] ->
                      at_addr data a (qenc f a c) ->
                      qcsearch mid rect_of F data a bnds q
                      = Some (qsearch mid rect_of f c bnds q)) ->
    qcsearch mid rect_of (S F) data base bounds q =
    Some (qsearch mid rect_of (S f) (QNode s items [o0; o1; o2; o3]) bounds q).
  Proof.
    intros Hlen Hall Hat Hkids.
    rewrite qcsearch_S, qsearch_S.
    destruct s; [rewrite qenc_layout in Hat; cbv zeta in Hat|rewrite qenc_unsplit in Hat];
      destruct (hdr_read data base items _ Hat Hlen Hall) as (Hb & Hn & Hi & Hhl & Hrest);
      set (ib := q_ibytes items) in *; set (L := Z.of_nat (length items)) in *;
      rewrite Hb, Hn; unfold L at 1; rewrite Nat2Z.id, Hi; fold L;
      cbn [app] in Hrest; destruct (byte_step _ _ _ _ Hrest) as [-> Hr0].
    - (* split: the slots sit after the flag byte, the kids after the slots *)
      change (1 =? 1) with true. cbv iota.
      destruct (at_app _ _ _ _ Hr0) as [Ht Hk]. rewrite slots_len_tbl in Hk.
      rewrite (slots_search_all _ data bounds q f Hlen [o0; o1; o2; o3] [0; 1; 2; 3]
                 _ _ _ eq_refl Ht).
      + reflexivity.
      + eapply at_addr_eq; [exact Hk|lia].
      + intros n addr bnds Hin Hat'. apply Hkids; assumption.
    - change (0 =? 1) with false. cbv iota. rewrite app_nil_r. reflexivity.
  Qed.

  Lemma qcsearch_at d : forall n data base bounds q,
    qshape d n ->
    Z.of_nat (length data) < 2 ^ 32 ->
    qall item_ok n ->
    at_addr data base (qenc (S d) base n) ->
    qcsearch mid rect_of (S (S d)) data base bounds q
    = Some (qsearch mid rect_of (S d) n bounds q).
  Proof.
    induction d as [|d IH]; intros [s items quads] data base bounds q [HL HF] Hlen Hall Hat;
      apply slots4 in HL as (o0 & o1 & o2 & o3 & ->);
      apply qall_unfold in Hall as [Hit Hk];
      (apply qcsearch_node; [assumption|assumption|assumption|]);
      intros c a bnds Hin Hat';
      rewrite Forall_forall in HF, Hk;
      pose proof (HF _ Hin) as Hc; pose proof (Hk _ Hin) as Hci; cbn [okid] in Hc, Hci.
    - destruct Hc.
    - apply IH; assumption.
  Qed.

  Lemma qcsearch_qenc : forall d n pre post bounds q,
    qshape d n ->
    let base := Z.of_nat (length pre) in
    let data := pre ++ qenc (S d) base n ++ post in
    Z.of_nat (length data) < 2 ^ 32 ->
    qall item_ok n ->
    qcsearch mid rect_of (S (S d)) data base bounds q
    = Some (qsearch mid rect_of (S d) n bounds q).
  Proof.
    intros d n pre post bounds q Hs base data Hlen Hall.
    apply qcsearch_at; try assumption. apply at_addr_intro.
  Qed.

  Theorem q_codec (d : nat) (n : qnode) (bounds q : rect) :
    qshape d n -> (d <= qMaxDepth)%nat -> qall item_ok n ->
    let data := set_compressed 2 (qenc (S qMaxDepth) 5 n) in
    Z.of_nat (length data) < 2 ^ 32 ->
    qcsearch mid rect_of (S (S qMaxDepth)) data 5 bounds q
    = Some (qsearch mid rect_of (S qMaxDepth) n bounds q).
  Proof.
    intros Hs Hd Hall data Hlen.
    apply qcsearch_at; try assumption.
    - eapply qshape_le; eassumption.
    - apply set_compressed_at.
  Qed.

  (* trees built by the model's inserts are well-shaped: shape and item bounds
     are both read off the invariant of QTreeProofs *)
  Lemma qwfG_qshape C d : forall b n, qwfG mid C d b n -> qshape d n.
  Proof.
    induction d as [|d IH]; intros b [sp its qs] W.
    - apply qwfG_0 in W. destruct W as (_ & _ & ->). split; [reflexivity|repeat constructor].
    - split; [apply qwfG_S in W; apply W|].
      apply Forall_forall. intros [c|] Hin; [|exact I].
      destruct (qwfG_kid _ _ _ _ _ _ _ _ W Hin) as (b' & Wc). exact (IH b' c Wc).
  Qed.

  Lemma qwfG_qall (P : Z -> Prop) d : forall b n, qwfG mid (fun _ it => P it) d b n -> qall P n.
  Proof.
    induction d as [|d IH]; intros b [sp its qs] W; apply qall_unfold.
    - apply qwfG_0 in W. destruct W as (Hi & _ & ->).
      split; [apply Forall_forall, Hi|repeat constructor].
    - split.
      + apply Forall_forall. intros it Hin. apply (qwfG_items _ _ _ _ _ it W).
        rewrite qitems_S. apply in_or_app. left; exact Hin.
      + apply Forall_forall. intros [c|] Hin; [|exact I].
        destruct (qwfG_kid _ _ _ _ _ _ _ _ W Hin) as (b' & Wc). exact (IH b' c Wc).
  Qed.

  (* a condition on the items alone is kept by every descent *)
  Lemma qbuild_wfP (P : Z -> Prop) bounds n :
    (forall i, (i < n)%nat -> P (Z.of_nat i)) ->
    qwfG mid (fun _ it => P it) qMaxDepth bounds (qbuild mid rect_of bounds n).
  Proof.
    intros H. unfold qbuild.
    apply (qbuild_genG mid rect_of (fun _ it => P it) (fun it b q Hp _ _ => Hp)
             qMaxDepth bounds (seq 0 n) qempty (qwfG_qempty _ _ _ _)).
    intros i Hi. apply in_seq in Hi. apply H. lia.
  Qed.

  Theorem qbuild_shape bounds n : qshape qMaxDepth (qbuild mid rect_of bounds n).
  Proof. apply (qwfG_qshape (fun _ _ => True) qMaxDepth bounds), (qbuild_wfP (fun _ => True)). trivial. Qed.

  Theorem qbuild_items bounds n :
    qall (fun it => 0 <= it < Z.of_nat n) (qbuild mid rect_of bounds n).
  Proof. apply (qwfG_qall _ qMaxDepth bounds), qbuild_wfP. intros i Hi. lia. Qed.

  Corollary q_codec_build (bounds : rect) (n : nat) (q : rect) :
    Z.of_nat n < 2 ^ 32 ->
    let data := set_compressed 2 (qenc (S qMaxDepth) 5 (qbuild mid rect_of bounds n)) in
    Z.of_nat (length data) < 2 ^ 32 ->
    qcsearch mid rect_of (S (S qMaxDepth)) data 5 bounds q
    = Some (qsearch mid rect_of (S qMaxDepth) (qbuild mid rect_of bounds n) bounds q).
  Proof.
    intros Hn data Hlen.
    assert (W : qwfG mid (fun _ it => item_ok it) qMaxDepth bounds (qbuild mid rect_of bounds n))
      by (apply qbuild_wfP; unfold item_ok; lia).
    apply (q_codec qMaxDepth); [apply (qwfG_qshape _ _ _ _ W)|apply le_n| |exact Hlen].
    apply (qwfG_qall _ _ _ _ W).
  Qed.

End CodecQ.

Print Assumptions le_bytes_length.
Print Assumptions read_le_le_bytes.
Print Assumptions num_bytes_cases.
Print Assumptions maxfold_fits.
Print Assumptions read_num_enc_num.
Print Assumptions read_items_flat_map.
Print Assumptions qenc_layout.
Print Assumptions qcsearch_qenc.
Print Assumptions q_codec.
Print Assumptions qbuild_shape.
Print Assumptions qbuild_items.
Print Assumptions q_codec_build.
