(* ParseRepr.v — property C08, the representation options: AllowSimplePoints and
   AllowRects change only the concrete type.  For every document and every two
   option sets that differ only in those two options, Parse accepts under one
   iff under the other; the two objects are equal once SimplePoint is read as
   Point and Rect as its five-point Polygon ([erase]); they write the same
   bytes, report the same validity, and a Circle feature is recognised under
   both. *)
From GJ Require Import Base Json JsonProofs.
Open Scope Z_scope.

Definition with_repr (o : popts) (simple rects : bool) : popts :=
  {| allow_simple := simple; allow_rects := rects; require_valid := require_valid o;
     disable_circle := disable_circle o; l180 := l180 o; l90 := l90 o |}.

Fixpoint erase (g : gobj) : gobj :=
  match g with
  | JSimple p => JPoint p None
  | JRect mn mx => JPoly [fpt_rect_points mn mx] None
  | JFeature b ex => JFeature (erase b) ex
  | JColl k cs ex => JColl k (map erase cs) ex
  | _ => g
  end.

(* validity and bytes do not see the representation *)
Lemma fpt_valid_repr (o : popts) (a r : bool) (p : fpt) : fpt_valid (with_repr o a r) p = fpt_valid o p.
Proof. reflexivity. Qed.

Lemma g_valid_repr (o : popts) (a r : bool) (g : gobj) : g_valid (with_repr o a r) g = g_valid o g.
Proof. apply g_valid_ext; reflexivity. Qed.

Lemma g_valid_erase (o : popts) (g : gobj) : g_valid o (erase g) = g_valid o g.
Proof.
  induction g as [p ex|p|mn mx|ps ex|rings ex|b ex IHb|k cs ex IHcs|c m] using gobj_ind'; cbn [erase g_valid]; try reflexivity.
  - unfold fpt_rect_points. cbn [forallb]. unfold fpt_valid. cbn [fst snd].
    destruct (fnum_valid (l180 o) (fst mn)), (fnum_valid (l90 o) (snd mn)), (fnum_valid (l180 o) (fst mx)), (fnum_valid (l90 o) (snd mx)); reflexivity.
  - exact IHb.
  - induction IHcs as [|c cs Hc Hcs IH]; [reflexivity|]. cbn [map forallb]. rewrite Hc, IH. reflexivity.
Qed.

Lemma child_coords_erase (fmt : Z -> list Z) (c : gobj) : child_coords fmt (erase c) = child_coords fmt c.
Proof.
  destruct c; reflexivity.
Qed.

Theorem emit_erase (fmt : Z -> list Z) (g : gobj) : emit fmt (erase g) = emit fmt g.
Proof.
  induction g as [p ex|p|mn mx|ps ex|rings ex|b ex IHb|k cs ex IHcs|c m] using gobj_ind'; cbn [erase]; try reflexivity.
  - cbn [emit]. rewrite IHb. reflexivity.
  - cbn [emit]. rewrite map_map. f_equal. f_equal. f_equal.
    apply map_ext_in. intros c Hc. rewrite Forall_forall in IHcs. destruct (k <? 3); [apply child_coords_erase|exact (IHcs c Hc)].
Qed.

(* a ring accepted by the AllowRects test is the ring of its two corners *)
Lemma perfect_rect_points (ext : list fpt) : ring_ok ext = true -> perfect_rect ext = true ->
  ext = fpt_rect_points (nth 0 ext (FV 0, FV 0)) (nth 2 ext (FV 0, FV 0)).
Proof.
  unfold perfect_rect. destruct ext as [|p0 [|p1 [|p2 [|p3 [|p4 [|p5 r]]]]]]; try discriminate. intros Hok H.
  rewrite !andb_true_iff in H. destruct H as (((((((H1 & H2) & H3) & H4) & H5) & H6) & H7) & H8).
  unfold ring_ok in Hok. apply andb_true_iff in Hok. destruct Hok as [_ Hcl]. cbn [last] in Hcl.
  unfold fpt_eqb in Hcl. apply andb_true_iff in Hcl. destruct Hcl as [Cx Cy].
  apply fnum_eqb_eq in H2, H3, H6, H7, Cx, Cy.
  cbn [nth]. unfold fpt_rect_points. destruct p0 as [x0 y0], p1 as [x1 y1], p2 as [x2 y2], p3 as [x3 y3], p4 as [x4 y4].
  cbn [fst snd] in *. subst. reflexivity.
Qed.

(* Circle recognition looks at the point only *)
Definition base_point (g : gobj) : option fpt := match g with JPoint p _ | JSimple p => Some p | _ => None end.

Lemma erase_base_point (g1 g2 : gobj) : erase g2 = erase g1 -> base_point g2 = base_point g1.
Proof.
  destruct g1, g2; cbn [erase base_point]; intros H; try discriminate; try reflexivity; inversion H; reflexivity.
Qed.

Lemma circ_of_base (o : popts) (one : Z) (base : gobj) (foreign : list (jkey * jv)) :
  circ_of o one base foreign =
  match base_point base, foreign with Some p, _ :: _ => circle_of o one p foreign | _, _ => None end.
Proof. destruct base; cbn [circ_of base_point]; try reflexivity; destruct foreign; reflexivity. Qed.

Lemma circle_of_repr (o : popts) (a r : bool) (one : Z) (p : fpt) (ms : list (jkey * jv)) :
  circle_of (with_repr o a r) one p ms = circle_of o one p ms.
Proof. reflexivity. Qed.

Definition repr_rel (w1 w2 : pres) : Prop :=
  match w1 with
  | POk g1 => exists g2, w2 = POk g2 /\ erase g2 = erase g1
  | PErr _ => exists c, w2 = PErr c
  end.

Lemma check_repr (o : popts) (a1 r1 a2 r2 : bool) (g1 g2 : gobj) (code : Z) : erase g2 = erase g1 ->
  repr_rel (check (with_repr o a1 r1) g1 code) (check (with_repr o a2 r2) g2 code).
Proof.
  intros E. unfold check. rewrite !g_valid_repr. cbn [require_valid with_repr].
  rewrite <- (g_valid_erase o g1), <- (g_valid_erase o g2), E.
  destruct (require_valid o && negb (g_valid o (erase g1))); cbn [repr_rel]; [eexists; reflexivity|].
  exists g2. split; [reflexivity|exact E].
Qed.

Lemma map_until_repr (f1 f2 : jv -> res gobj) (l : list jv) :
  (forall x, In x l -> match f1 x with ROk g1 => exists g2, f2 x = ROk g2 /\ erase g2 = erase g1 | RErr _ => exists c, f2 x = RErr c end) ->
  match map_until f1 l with
  | ROk k1 => exists k2, map_until f2 l = ROk k2 /\ map erase k2 = map erase k1
  | RErr _ => exists c, map_until f2 l = RErr c
  end.
Proof.
  induction l as [|x l IH]; intros H; cbn [map_until]; [exists []; split; reflexivity|].
  pose proof (H x (or_introl eq_refl)) as Hx. specialize (IH (fun y Hy => H y (or_intror Hy))).
  destruct (f1 x) as [g1|c1].
  - destruct Hx as (g2 & -> & Eg). destruct (map_until f1 l) as [k1|c].
    + destruct IH as (k2 & -> & Ek). exists (g2 :: k2). split; [reflexivity|]. cbn [map]. rewrite Eg, Ek. reflexivity.
    + destruct IH as (c' & ->). eexists; reflexivity.
  - destruct Hx as (c & ->). eexists; reflexivity.
Qed.

(* the two runs agree branch by branch once they agree on the nested objects *)
Lemma kind_repr (o : popts) (a1 r1 a2 r2 : bool) (one : Z) (rec1 rec2 : jv -> pres) (K : tkind) (ks : pkeys) :
  (forall v, repr_rel (rec1 v) (rec2 v)) ->
  repr_rel (parse_kind rec1 (with_repr o a1 r1) one K ks) (parse_kind rec2 (with_repr o a2 r2) one K ks).
Proof.
  intros Hrec. destruct K as [| | | |k]; cbn [parse_kind].
  - unfold parse_pt. change (allow_simple (with_repr o a1 r1)) with a1. change (allow_simple (with_repr o a2 r2)) with a2.
    destruct (parse_point_coords true (k_coords ks)) as [[p ex]|c]; [|eexists; reflexivity]. cbv zeta.
    destruct (with_members ex (k_foreign ks)); [apply check_repr; reflexivity|].
    destruct a1, a2; apply check_repr; reflexivity.
  - unfold parse_ln. destruct (parse_line_coords true (k_coords ks)) as [[ps ex]|c]; [|eexists; reflexivity].
    destruct (length ps <? 2)%nat; [eexists; reflexivity|]. apply check_repr. reflexivity.
  - unfold parse_pg. change (allow_rects (with_repr o a1 r1)) with r1. change (allow_rects (with_repr o a2 r2)) with r2.
    destruct (parse_poly_coords true (k_coords ks)) as [[rings ex]|c]; [|eexists; reflexivity].
    destruct rings as [|ext holes]; [eexists; reflexivity|].
    destruct (forallb ring_ok (ext :: holes)) eqn:Eok; cbn [negb]; [|eexists; reflexivity]. cbv zeta.
    destruct (with_members ex (k_foreign ks)) as [e|]; [apply check_repr; reflexivity|].
    destruct holes as [|h holes]; [|apply check_repr; reflexivity].
    cbn [forallb] in Eok. rewrite andb_true_r in Eok.
    destruct (perfect_rect ext) eqn:Ep.
    + pose proof (perfect_rect_points ext Eok Ep) as Hext. rewrite !andb_true_r.
      destruct r1, r2; apply check_repr; cbn [erase]; try reflexivity; rewrite <- Hext; reflexivity.
    + rewrite !andb_false_r. apply check_repr. reflexivity.
  - unfold parse_ft. destruct (k_geom ks) as [gv|]; [|eexists; reflexivity].
    specialize (Hrec gv). destruct (rec1 gv) as [base1|c]; cbn [repr_rel] in Hrec; [|destruct Hrec as (c' & ->); eexists; reflexivity].
    destruct Hrec as (base2 & -> & Eb).
    rewrite !circ_of_base, (erase_base_point base1 base2 Eb).
    destruct (base_point base1) as [p|]; [destruct (k_foreign ks) as [|m0 ms'] eqn:Ef|].
    + cbn [repr_rel]. eexists. split; [reflexivity|]. cbn [erase]. rewrite Eb. reflexivity.
    + rewrite !circle_of_repr. destruct (circle_of o one p (m0 :: ms')) as [[gc|cc]|]; cbn [repr_rel].
      * exists gc. split; reflexivity.
      * eexists; reflexivity.
      * eexists. split; [reflexivity|]. cbn [erase]. rewrite Eb. reflexivity.
    + destruct (k_foreign ks); cbn [repr_rel]; eexists; (split; [reflexivity|]); cbn [erase]; rewrite Eb; reflexivity.
  - unfold parse_coll, coll_child. destruct (coll_src k ks) as [cv|]; [|eexists; reflexivity].
    destruct (negb (is_array cv)); [eexists; reflexivity|]. destruct (k <? 3).
    + destruct (map_until (multi_child k) (elems cv)) as [kids|c]; [apply check_repr; reflexivity|eexists; reflexivity].
    + pose proof (map_until_repr (fun c => pres_res (rec1 c)) (fun c => pres_res (rec2 c)) (elems cv)) as M. cbv beta in M.
      assert (Hx : forall x, In x (elems cv) ->
                match pres_res (rec1 x) with
                | ROk g1 => exists g2, pres_res (rec2 x) = ROk g2 /\ erase g2 = erase g1
                | RErr _ => exists c, pres_res (rec2 x) = RErr c end).
      { intros x _. pose proof (Hrec x) as Hxx. unfold repr_rel in Hxx. destruct (rec1 x) as [g1|c1]; cbn [pres_res].
        - destruct Hxx as (g2 & -> & E). exists g2. split; [reflexivity|exact E].
        - destruct Hxx as (c & ->). eexists; reflexivity. }
      specialize (M Hx). destruct (map_until _ (elems cv)) as [k1|c].
      * destruct M as (k2 & -> & Ek). cbn [repr_rel]. eexists. split; [reflexivity|]. cbn [erase]. rewrite Ek. reflexivity.
      * destruct M as (c' & ->). eexists; reflexivity.
Qed.

Theorem parse_repr (fuel : nat) : forall (o : popts) (a1 r1 a2 r2 : bool) (one : Z) (v : jv),
  repr_rel (parse fuel (with_repr o a1 r1) one v) (parse fuel (with_repr o a2 r2) one v).
Proof.
  intros o a1 r1 a2 r2 one v. apply (parse_rel repr_rel); [intros c c'; exists c'; reflexivity|]. exact (kind_repr o a1 r1 a2 r2 one).
Qed.

Definition is_circle_g (g : gobj) : bool := match g with JCircle _ _ => true | _ => false end.

Lemma erase_circle (g1 g2 : gobj) : erase g2 = erase g1 -> is_circle_g g2 = is_circle_g g1.
Proof. destruct g1, g2; cbn [erase is_circle_g]; intros H; try discriminate; reflexivity. Qed.

(* identical bytes, identical validity, Circle recognised under both *)
Theorem repr_options_only_change_the_type (fmt : Z -> list Z) (fuel : nat) (o : popts) (a1 r1 a2 r2 : bool) (one : Z) (v : jv) (g1 : gobj) :
  parse fuel (with_repr o a1 r1) one v = POk g1 ->
  exists g2, parse fuel (with_repr o a2 r2) one v = POk g2 /\
             emit fmt g2 = emit fmt g1 /\ g_valid o g2 = g_valid o g1 /\ is_circle_g g2 = is_circle_g g1.
Proof.
  intros H. pose proof (parse_repr fuel o a1 r1 a2 r2 one v) as R. rewrite H in R. destruct R as (g2 & E2 & Ee).
  exists g2. split; [exact E2|]. split; [|split].
  - rewrite <- (emit_erase fmt g2), <- (emit_erase fmt g1), Ee. reflexivity.
  - rewrite <- (g_valid_erase o g2), <- (g_valid_erase o g1), Ee. reflexivity.
  - exact (erase_circle g1 g2 Ee).
Qed.

Print Assumptions parse_repr.
Print Assumptions repr_options_only_change_the_type.
