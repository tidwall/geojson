(* RTreeProofs.v — the R-tree of geometry/rtree.go (model: Index.v) is an exact
   accelerator at the tree level: a search of the tree built by successive
   inserts reports exactly the items whose rectangle meets the query, each
   once; nodes hold at most 17 kids transiently and at most 16 after each
   insert; all leaves are at depth = height.

   Key modelling fact used throughout: in the order "c contains b" on boxes,
   [rexpand] is the binary join and [rrecalc] the join of a non-empty list, and
   every node box of a tree built by inserts is the EXACT join of its kids'
   boxes ([is_lub]).  Exactness (tightness) is what makes both halves of
   [rsplit] non-empty, hence the 16-kid bound. *)
From Coq Require Import Sorting.Permutation.
From GJ Require Import Base Index QTreeProofs.
Open Scope Z_scope.

Lemma perm_insert_mid {T} (A B C B' : list T) x :
  Permutation B' (x :: B) -> Permutation (A ++ B' ++ C) (x :: A ++ B ++ C).
Proof.
  intros H. eapply perm_trans.
  - apply Permutation_app_head, Permutation_app_tail, H.
  - cbn [app]. apply Permutation_sym, Permutation_middle.
Qed.

Lemma length_pos_ne {A} (l : list A) : l <> [] <-> (0 < length l)%nat.
Proof. destruct l; cbn [length]; split; intros; try congruence; try lia. Qed.

(* the element at position i, and what set_nth does there *)
Lemma nth_split_set {A} (l : list A) : forall i, (i < length l)%nat ->
  exists k1 x k2, l = k1 ++ x :: k2 /\ nth_error l i = Some x /\
                  forall y, set_nth l i y = k1 ++ y :: k2.
Proof.
  induction l as [|a l IH]; intros i Hi; cbn [length] in Hi; [lia|].
  destruct i as [|i].
  - exists [], a, l. repeat split.
  - destruct (IH i) as (k1 & x & k2 & E & N & S); [lia|].
    exists (a :: k1), x, k2. repeat split.
    + cbn [app]. f_equal. exact E.
    + exact N.
    + intros y. cbn [set_nth app]. f_equal. apply S.
Qed.

Definition nonempty (r : rect) : Prop :=
  px (fst r) <= px (snd r) /\ py (fst r) <= py (snd r).

(* rcontains c b : "c contains b", a product order on the 4 coordinates *)
Lemma rcontains_iff c b :
  rcontains c b = true <->
  fst (fst c) <= fst (fst b) /\ snd (fst c) <= snd (fst b) /\
  fst (snd b) <= fst (snd c) /\ snd (snd b) <= snd (snd c).
Proof.
  destruct c as [[c1 c2] [c3 c4]], b as [[b1 b2] [b3 b4]].
  unfold rcontains. cbn [fst snd].
  rewrite negb_true_iff, !orb_false_iff, !Z.ltb_ge. lia.
Qed.

Lemma rcontains_refl b : rcontains b b = true.
Proof. apply rcontains_iff. lia. Qed.

Lemma rcontains_trans a b c :
  rcontains a b = true -> rcontains b c = true -> rcontains a c = true.
Proof.
  intros H1 H2. apply rcontains_iff in H1. apply rcontains_iff in H2. apply rcontains_iff. lia.
Qed.

(* rexpand is the join: coordinate-wise min and max, so it covers both arguments
   and is the least such box *)
Lemma rexpand_minmax r b :
  rexpand r b = ((Z.min (fst (fst r)) (fst (fst b)), Z.min (snd (fst r)) (snd (fst b))),
                 (Z.max (fst (snd r)) (fst (snd b)), Z.max (snd (snd r)) (snd (snd b)))).
Proof.
  assert (Hmin : forall x y, (if y <? x then y else x) = Z.min x y)
    by (intros x y; destruct (Z.ltb_spec y x); lia).
  assert (Hmax : forall x y, (if x <? y then y else x) = Z.max x y)
    by (intros x y; destruct (Z.ltb_spec x y); lia).
  destruct r as [[r1 r2] [r3 r4]], b as [[b1 b2] [b3 b4]].
  unfold rexpand. cbn [fst snd]. rewrite !Hmin, !Hmax. reflexivity.
Qed.

Lemma rexpand_lub c r b :
  rcontains c (rexpand r b) = true <-> rcontains c r = true /\ rcontains c b = true.
Proof.
  rewrite rexpand_minmax. split.
  - intros H. apply rcontains_iff in H. cbn [fst snd] in H. destruct H as (H1 & H2 & H3 & H4).
    apply Z.min_glb_iff in H1, H2. apply Z.max_lub_iff in H3, H4.
    split; apply rcontains_iff; lia.
  - intros [Hr Hb]. apply rcontains_iff in Hr. apply rcontains_iff in Hb. apply rcontains_iff.
    cbn [fst snd]. (split; [|split; [|split]]);
      [apply Z.min_glb|apply Z.min_glb|apply Z.max_lub|apply Z.max_lub]; lia.
Qed.

Lemma rexpand_covers_l r b : rcontains (rexpand r b) r = true.
Proof. apply (proj1 (rexpand_lub _ r b)), rcontains_refl. Qed.

Lemma rexpand_covers_r r b : rcontains (rexpand r b) b = true.
Proof. apply (proj1 (rexpand_lub _ r b)), rcontains_refl. Qed.

(* holds for all boxes: the two hypotheses are not used *)
Lemma rexpand_covers r b :
  nonempty r -> nonempty b ->
  rcontains (rexpand r b) r = true /\ rcontains (rexpand r b) b = true.
Proof. intros _ _. split; [apply rexpand_covers_l|apply rexpand_covers_r]. Qed.

Lemma rexpand_absorb r b : rcontains r b = true -> rexpand r b = r.
Proof.
  rewrite rexpand_minmax, rcontains_iff. destruct r as [[r1 r2] [r3 r4]]. cbn [fst snd].
  intros H. rewrite !Z.min_l, !Z.max_l by lia. reflexivity.
Qed.

Lemma nonempty_mono c b : rcontains c b = true -> nonempty b -> nonempty c.
Proof.
  intros H. apply rcontains_iff in H. unfold nonempty, px, py. lia.
Qed.

(* a box meeting the query forces every covering box to meet it (argument
   order as used by rsearch: rect_intersects_rect q B) *)
Lemma contains_intersects B r q :
  rcontains B r = true -> rect_intersects_rect r q = true ->
  rect_intersects_rect q B = true.
Proof.
  destruct B as [[a b] [c d]], r as [[e f] [g h]], q as [[i j] [k l]].
  intros H1 H2. apply rcontains_iff in H1. apply intersects_iff in H2. apply intersects_iff.
  cbn [fst snd] in H1. lia.
Qed.

Lemma contains_intersects_ne B r q :
  rcontains B r = true -> nonempty r -> rect_intersects_rect r q = true ->
  rect_intersects_rect q B = true.
Proof. intros H _. apply contains_intersects, H. Qed.

Definition covers (c : rect) (kids : list rnode) : Prop :=
  Forall (fun k => rcontains c (rbox k) = true) kids.

Definition is_lub (b : rect) (kids : list rnode) : Prop :=
  forall c, rcontains c b = true <-> covers c kids.

Lemma covers_nil c : covers c [] <-> True.
Proof. unfold covers. split; auto. Qed.

Lemma covers_cons c k l : covers c (k :: l) <-> rcontains c (rbox k) = true /\ covers c l.
Proof. apply Forall_cons_iff. Qed.

Lemma covers_app c l1 l2 : covers c (l1 ++ l2) <-> covers c l1 /\ covers c l2.
Proof. apply Forall_app. Qed.

Lemma covers_perm c l l' : Permutation l l' -> (covers c l <-> covers c l').
Proof.
  intros H. split; apply Permutation_Forall; [exact H|apply Permutation_sym, H].
Qed.

Lemma is_lub_covers b kids : is_lub b kids -> covers b kids.
Proof. intros H. apply H, rcontains_refl. Qed.

(* joins compose: a single kid, two lists side by side *)
Lemma is_lub_single k : is_lub (rbox k) [k].
Proof.
  intros c. split; intros H; [constructor; [exact H|constructor]|exact (Forall_inv H)].
Qed.

Lemma is_lub_app b1 b2 l1 l2 :
  is_lub b1 l1 -> is_lub b2 l2 -> is_lub (rexpand b1 b2) (l1 ++ l2).
Proof.
  intros H1 H2 c. split; intros H.
  - apply rexpand_lub in H. apply Forall_app. split; [apply H1|apply H2]; apply H.
  - apply Forall_app in H. apply rexpand_lub. split; [apply H1|apply H2]; apply H.
Qed.

Lemma recalc_fold_lub : forall r acc l0,
  is_lub acc l0 -> is_lub (fold_left (fun acc x => rexpand acc (rbox x)) r acc) (l0 ++ r).
Proof.
  induction r as [|k r IH]; intros acc l0 H; cbn [fold_left].
  - rewrite app_nil_r. exact H.
  - change (l0 ++ k :: r) with (l0 ++ [k] ++ r). rewrite app_assoc.
    apply IH, is_lub_app; [exact H|apply is_lub_single].
Qed.

Lemma rrecalc_lub kids : kids <> [] -> is_lub (rrecalc kids) kids.
Proof.
  destruct kids as [|k r]; [congruence|]. intros _.
  apply (recalc_fold_lub r (rbox k) [k]), is_lub_single.
Qed.

Lemma rrecalc_covers kids : kids <> [] -> covers (rrecalc kids) kids.
Proof. intros H. apply is_lub_covers, rrecalc_lub, H. Qed.

(* rrecalc covers every kid's box (vacuous for the empty list) *)
Lemma rrecalc_covers_all kids k :
  In k kids -> rcontains (rrecalc kids) (rbox k) = true.
Proof.
  intros Hk. assert (Hne : kids <> []) by (destruct kids; [contradiction|congruence]).
  apply (Forall_In _ _ _ (rrecalc_covers kids Hne) Hk).
Qed.

Definition cl_step (bnx bny bxx bxy : Z) (st : Z * Z * Z * Z) (c : rnode) : Z * Z * Z * Z :=
  let '(i, j, jenl, jarea) := st in
  let '((rnx, rny), (rxx, rxy)) := rbox c in
  let area := (rxx - rnx) * (rxy - rny) in
  let enl := enlarged_len bnx bxx rnx rxx * enlarged_len bny bxy rny rxy - area in
  if (j =? -1) || (enl <? jenl) then (i + 1, i, enl, area)
  else if (enl =? jenl) && (area <? jarea) then (i + 1, i, enl, area)
  else (i + 1, j, jenl, jarea).

Lemma choose_least_eq kids bnx bny bxx bxy :
  choose_least kids ((bnx, bny), (bxx, bxy)) =
  let '(_, j, _, _) := fold_left (cl_step bnx bny bxx bxy) kids (0, -1, 0, 0) in Z.to_nat j.
Proof. reflexivity. Qed.

Lemma cl_step_spec bnx bny bxx bxy i j e a c :
  exists j' e' a', cl_step bnx bny bxx bxy (i, j, e, a) c = (i + 1, j', e', a') /\
                   (j' = i \/ (j' = j /\ j <> -1)).
Proof.
  unfold cl_step. destruct (rbox c) as [[rnx rny] [rxx rxy]].
  cbv zeta.
  destruct (Z.eqb_spec j (-1)) as [Hj|Hj]; cbn [orb].
  - do 3 eexists. split; [reflexivity|]. left; reflexivity.
  - match goal with |- context [if ?x <? ?y then _ else _] => destruct (x <? y) end.
    + do 3 eexists. split; [reflexivity|]. left; reflexivity.
    + match goal with |- context [if ?x && ?y then _ else _] => destruct (x && y) end.
      * do 3 eexists. split; [reflexivity|]. left; reflexivity.
      * do 3 eexists. split; [reflexivity|]. right; split; [reflexivity|exact Hj].
Qed.

Lemma cl_fold_spec bnx bny bxx bxy : forall kids i j e a,
  0 <= i -> -1 <= j < i ->
  exists j' e' a',
    fold_left (cl_step bnx bny bxx bxy) kids (i, j, e, a) = (i + Z.of_nat (length kids), j', e', a') /\
    -1 <= j' < i + Z.of_nat (length kids) /\
    ((0 <= j \/ kids <> []) -> 0 <= j').
Proof.
  induction kids as [|c kids IH]; intros i j e a Hi Hj.
  - exists j, e, a. cbn [fold_left length]. rewrite Z.add_0_r. repeat split; try lia.
    intros [H|H]; [lia|congruence].
  - cbn [fold_left].
    destruct (cl_step_spec bnx bny bxx bxy i j e a c) as (j1 & e1 & a1 & E & Hj1).
    rewrite E.
    destruct (IH (i + 1) j1 e1 a1) as (j' & e' & a' & E' & B & P); [lia|lia|].
    exists j', e', a'. cbn [length]. rewrite Nat2Z.inj_succ.
    replace (i + Z.succ (Z.of_nat (length kids))) with (i + 1 + Z.of_nat (length kids)) by lia.
    split; [exact E'|]. split; [exact B|].
    intros _. apply P. left. lia.
Qed.

Lemma choose_least_lt kids ib : kids <> [] -> (choose_least kids ib < length kids)%nat.
Proof.
  intros Hne. destruct ib as [[bnx bny] [bxx bxy]]. rewrite choose_least_eq.
  destruct (cl_fold_spec bnx bny bxx bxy kids 0 (-1) 0 0) as (j & e & a & E & B & P); [lia|lia|].
  rewrite E. specialize (P (or_intror Hne)). lia.
Qed.

Definition mind (ax : bool) (lb : rect) (x : rnode) : Z :=
  if ax then fst (fst (rbox x)) - fst (fst lb) else snd (fst (rbox x)) - snd (fst lb).
Definition maxd (ax : bool) (lb : rect) (x : rnode) : Z :=
  if ax then fst (snd lb) - fst (snd (rbox x)) else snd (snd lb) - snd (snd (rbox x)).

Lemma split_loop_step f ax lb kept x rest' right equals :
  split_loop (S f) ax lb kept (x :: rest') right equals =
  if mind ax lb x <? maxd ax lb x then split_loop f ax lb (kept ++ [x]) rest' right equals
  else
    let right' := if maxd ax lb x <? mind ax lb x then right ++ [x] else right in
    let equals' := if maxd ax lb x <? mind ax lb x then equals else equals ++ [x] in
    match rest' with
    | [] => (kept, right', equals')
    | _ => split_loop f ax lb kept (last rest' x :: removelast rest') right' equals'
    end.
Proof.
  unfold mind, maxd. destruct lb as [[lnx lny] [lxx lxy]].
  cbn [split_loop]. destruct (rbox x) as [[xnx xny] [xxx xxy]]. cbn [fst snd].
  reflexivity.
Qed.

Section SplitLoop.
  Variable ax : bool.
  Variable lb : rect.
  Let PL (x : rnode) : Prop := mind ax lb x < maxd ax lb x.
  Let PR (x : rnode) : Prop := maxd ax lb x < mind ax lb x.

  (* fuel = length rest suffices; the four lists are preserved as a multiset
     and the two sides hold what lies strictly nearer to them *)
  Lemma split_loop_spec : forall fuel kept rest right equals,
    (length rest <= fuel)%nat ->
    Forall PL kept -> Forall PR right ->
    exists L R E,
      split_loop fuel ax lb kept rest right equals = (L, R, E) /\
      Permutation (L ++ R ++ E) (kept ++ rest ++ right ++ equals) /\
      Forall PL L /\ Forall PR R.
  Proof.
    induction fuel as [|f IH]; intros kept rest right equals Hlen HL HR.
    - destruct rest; cbn [length] in Hlen; [|lia].
      cbn [split_loop]. exists (kept ++ []), right, equals.
      rewrite app_nil_r. cbn [app]. repeat split; auto.
    - destruct rest as [|x rest'].
      + cbn [split_loop]. exists kept, right, equals. cbn [app]. repeat split; auto.
      + rewrite split_loop_step. cbn [length] in Hlen.
        destruct (Z.ltb_spec (mind ax lb x) (maxd ax lb x)) as [Hlt|Hge].
        * destruct (IH (kept ++ [x]) rest' right equals) as (L & R & E & Eq & Hp & H1 & H2);
            [lia| |exact HR|].
          { apply Forall_app. split; [exact HL|]. constructor; [exact Hlt|constructor]. }
          exists L, R, E. split; [exact Eq|]. split; [|auto].
          rewrite <- app_assoc in Hp. exact Hp.
        * cbv zeta.
          set (right' := if maxd ax lb x <? mind ax lb x then right ++ [x] else right).
          set (equals' := if maxd ax lb x <? mind ax lb x then equals else equals ++ [x]).
          assert (HR' : Forall PR right').
          { subst right'. destruct (Z.ltb_spec (maxd ax lb x) (mind ax lb x)); [|exact HR].
            apply Forall_app. split; [exact HR|]. constructor; [assumption|constructor]. }
          assert (Hp' : Permutation (right' ++ equals') (x :: right ++ equals)).
          { subst right' equals'. destruct (maxd ax lb x <? mind ax lb x).
            - rewrite <- app_assoc. cbn [app]. apply Permutation_sym, Permutation_middle.
            - rewrite app_assoc. apply Permutation_sym, Permutation_cons_append. }
          clearbody right' equals'.
          destruct rest' as [|y rest''].
          { exists kept, right', equals'. split; [reflexivity|]. split; [|auto].
            cbn [app]. apply Permutation_app_head. exact Hp'. }
          set (rest' := y :: rest'') in *.
          assert (Hne : rest' <> []) by (subst rest'; congruence).
          destruct (IH kept (last rest' x :: removelast rest') right' equals')
            as (L & R & E & Eq & Hp & H1 & H2); [|exact HL|exact HR'|].
          { pose proof (app_removelast_last x Hne) as Hrl.
            apply (f_equal (@length _)) in Hrl. rewrite app_length in Hrl.
            cbn [length] in *. lia. }
          exists L, R, E. split; [exact Eq|]. split; [|auto].
          eapply perm_trans; [exact Hp|].
          apply Permutation_app_head.
          (* (last :: removelast) ++ right' ++ equals'  ~  x :: rest' ++ right ++ equals *)
          assert (Hrl : Permutation (last rest' x :: removelast rest') rest').
          { rewrite (app_removelast_last x Hne) at 3.
            apply Permutation_cons_append. }
          eapply perm_trans; [apply Permutation_app; [exact Hrl|exact Hp']|].
          apply Permutation_sym. change (Permutation (x :: rest' ++ right ++ equals) (rest' ++ x :: right ++ equals)).
          apply Permutation_middle.
  Qed.
End SplitLoop.

(* Tightness is necessary for both halves to be non-empty: with a box that is
   not the exact join of the kids, every kid can fall on the same side. *)
Example rsplit_needs_tight :
  rsplit ((0, 0), (100, 1)) [RItem ((0, 0), (1, 1)) 0; RItem ((1, 0), (2, 1)) 1] =
  (RNode ((0, 0), (2, 1)) [RItem ((0, 0), (1, 1)) 0; RItem ((1, 0), (2, 1)) 1],
   RNode ((0, 0), (0, 0)) []).
Proof. vm_compute. reflexivity. Qed.

(* distribution of the "equals" between the two sides *)
Definition dist (lr : list rnode * list rnode) (e : rnode) : list rnode * list rnode :=
  let '(l, r) := lr in
  if (length l <? length r)%nat then (l ++ [e], r) else (l, r ++ [e]).

Lemma dist_spec : forall eq l0 r0,
  exists l r, fold_left dist eq (l0, r0) = (l, r) /\
    Permutation (l ++ r) (l0 ++ r0 ++ eq) /\
    (((0 < length l0)%nat /\ (0 < length r0)%nat) \/
     (eq <> [] /\ (2 <= length l0 + length r0 + length eq)%nat) ->
     (0 < length l)%nat /\ (0 < length r)%nat).
Proof.
  induction eq as [|e eq IH]; intros l0 r0.
  - exists l0, r0. cbn [fold_left]. rewrite app_nil_r.
    split; [reflexivity|]. split; [reflexivity|].
    intros [H|[H _]]; [exact H|congruence].
  - cbn [fold_left]. unfold dist at 2.
    destruct (Nat.ltb_spec (length l0) (length r0)) as [Hlt|Hge].
    + destruct (IH (l0 ++ [e]) r0) as (l & r & E & Hp & Hne).
      exists l, r. split; [exact E|]. split.
      * eapply perm_trans; [exact Hp|]. rewrite <- app_assoc. apply Permutation_app_head.
        cbn [app]. apply Permutation_middle.
      * intros _. apply Hne. left. rewrite app_length. cbn [length]. lia.
    + destruct (IH l0 (r0 ++ [e])) as (l & r & E & Hp & Hne).
      exists l, r. split; [exact E|]. split.
      * eapply perm_trans; [exact Hp|]. apply Permutation_app_head.
        rewrite <- app_assoc. reflexivity.
      * intros H. apply Hne. rewrite app_length. cbn [length] in *.
        destruct l0 as [|a l0'].
        -- right. cbn [length] in *. destruct H as [[H _]|[_ H]]; [lia|].
           split; [|lia]. destruct eq; cbn [length] in *; [lia|congruence].
        -- left. cbn [length]. lia.
Qed.

Lemma rsplit_eq bnx bny bxx bxy kids :
  rsplit ((bnx, bny), (bxx, bxy)) kids =
  let ax := negb (bxx - bnx <? bxy - bny) in
  let '(lft, rgt, equals) := split_loop (length kids) ax ((bnx, bny), (bxx, bxy)) [] kids [] [] in
  let '(l, r) := fold_left dist equals (lft, rgt) in
  (RNode (rrecalc l) l, RNode (rrecalc r) r).
Proof. reflexivity. Qed.

(* if the kids that have P and lie in b also lie in a box that does not contain
   b, then b is not the join of kids that all have P *)
Lemma lub_side (P : rnode -> Prop) b kids shrunk :
  is_lub b kids -> rcontains shrunk b <> true ->
  (forall k, rcontains b (rbox k) = true -> P k -> rcontains shrunk (rbox k) = true) ->
  ~ Forall P kids.
Proof.
  intros Hlub Hs Hk HP. apply Hs, Hlub.
  apply Forall_forall. intros k Hin.
  apply Hk; [apply (Forall_In _ _ _ (is_lub_covers _ _ Hlub))|apply (Forall_In _ _ _ HP)]; exact Hin.
Qed.

(* along either axis the kids are not all strictly nearer the same side of
   their join: the box shrunk by one on the other side would still cover them *)
Lemma lub_attained ax b kids :
  is_lub b kids ->
  ~ Forall (fun x => maxd ax b x < mind ax b x) kids /\
  ~ Forall (fun x => mind ax b x < maxd ax b x) kids.
Proof.
  intros Hlub. destruct b as [[bnx bny] [bxx bxy]]. split.
  - apply (lub_side _ _ _ (if ax then ((bnx + 1, bny), (bxx, bxy)) else ((bnx, bny + 1), (bxx, bxy))) Hlub).
    + intros H. apply rcontains_iff in H. destruct ax; cbn [fst snd] in H; lia.
    + intros k Hc HP. apply rcontains_iff in Hc. apply rcontains_iff. unfold mind, maxd in HP.
      destruct ax; cbn [fst snd] in *; lia.
  - apply (lub_side _ _ _ (if ax then ((bnx, bny), (bxx - 1, bxy)) else ((bnx, bny), (bxx, bxy - 1))) Hlub).
    + intros H. apply rcontains_iff in H. destruct ax; cbn [fst snd] in H; lia.
    + intros k Hc HP. apply rcontains_iff in Hc. apply rcontains_iff. unfold mind, maxd in HP.
      destruct ax; cbn [fst snd] in *; lia.
Qed.

(* rsplit partitions the kids; with an exact (tight) box and >= 2 kids both
   halves are non-empty *)
Lemma rsplit_parts b kids :
  exists l r, rsplit b kids = (RNode (rrecalc l) l, RNode (rrecalc r) r) /\
              Permutation (l ++ r) kids /\
              (is_lub b kids -> (2 <= length kids)%nat -> l <> [] /\ r <> []).
Proof.
  destruct b as [[bnx bny] [bxx bxy]]. rewrite rsplit_eq. cbv zeta.
  set (ax := negb (bxx - bnx <? bxy - bny)). set (b := ((bnx, bny), (bxx, bxy))) in *.
  destruct (split_loop_spec ax b (length kids) [] kids [] [] (le_n _)
              (Forall_nil _) (Forall_nil _))
    as (L & R & E & Eq & Hp & HL & HR).
  rewrite Eq. cbn [app] in Hp. rewrite !app_nil_r in Hp.
  destruct (dist_spec E L R) as (l & r & Ed & Hpd & Hne). rewrite Ed.
  exists l, r. split; [reflexivity|].
  split; [eapply perm_trans; [exact Hpd|exact Hp]|]. intros Hlub Hlen.
  rewrite !length_pos_ne. apply Hne.
  pose proof (Permutation_length Hp) as Hl. rewrite !app_length in Hl.
  destruct E as [|e E'].
  2:{ right. split; [congruence|]. lia. }
  left. rewrite app_nil_r in Hp. cbn [length] in Hl.
  destruct (lub_attained ax _ _ Hlub) as (HnR & HnL). split.
  - (* L empty: every kid is strictly nearer the max side, so the box min is not attained *)
    destruct L as [|x L']; [exfalso|cbn [length]; lia]. cbn [app] in Hp.
    apply HnR, (Permutation_Forall Hp HR).
  - destruct R as [|x R']; [exfalso|cbn [length]; lia]. rewrite app_nil_r in Hp.
    apply HnL, (Permutation_Forall Hp HL).
Qed.

(* no tightness is needed for the partition *)
Lemma rsplit_perm b kids :
  exists l r, rsplit b kids = (RNode (rrecalc l) l, RNode (rrecalc r) r) /\
              Permutation (l ++ r) kids.
Proof. destruct (rsplit_parts b kids) as (l & r & E & Hp & _). exists l, r. auto. Qed.

Lemma rsplit_spec b kids :
  is_lub b kids -> (2 <= length kids)%nat ->
  exists l r, rsplit b kids = (RNode (rrecalc l) l, RNode (rrecalc r) r) /\
              Permutation (l ++ r) kids /\ l <> [] /\ r <> [].
Proof.
  intros Hlub Hlen. destruct (rsplit_parts b kids) as (l & r & E & Hp & Hne).
  exists l, r. split; [exact E|]. split; [exact Hp|]. exact (Hne Hlub Hlen).
Qed.

(* for the 17-kid overflow node: both halves hold between 1 and 16 kids *)
Corollary rsplit_17 b kids :
  is_lub b kids -> length kids = 17%nat ->
  exists l r, rsplit b kids = (RNode (rrecalc l) l, RNode (rrecalc r) r) /\
              Permutation (l ++ r) kids /\
              (1 <= length l <= 16)%nat /\ (1 <= length r <= 16)%nat.
Proof.
  intros Hlub H17.
  destruct (rsplit_spec b kids Hlub) as (l & r & E & Hp & Hl & Hr); [lia|].
  exists l, r. split; [exact E|]. split; [exact Hp|].
  apply length_pos_ne in Hl. apply length_pos_ne in Hr.
  pose proof (Permutation_length Hp) as Hlen. rewrite app_length in Hlen. lia.
Qed.

(* what the caller of rinsert makes of its result: expand the box when grown *)
Definition rins2 (h : nat) (n : rnode) (ib : rect) (item : Z) : rnode :=
  let '(n1, g) := rinsert h n ib item in
  if g then set_box n1 (rexpand (rbox n1) ib) else n1.

Lemma rinsert_0 b kids ib item :
  rinsert 0 (RNode b kids) ib item =
  (RNode b (kids ++ [RItem ib item]), negb (rcontains b ib)).
Proof. reflexivity. Qed.

Lemma rinsert_S h b kids ib item :
  rinsert (S h) (RNode b kids) ib item =
  match nth_error kids (choose_least kids ib) with
  | None => (RNode b kids, false)
  | Some child =>
      let child2 := rins2 h child ib item in
      let grown := if snd (rinsert h child ib item) then negb (rcontains b ib) else false in
      if (length (rkids child2) =? 17)%nat then
        let '(l, r) := rsplit (rbox child2) (rkids child2) in
        (RNode b (set_nth kids (choose_least kids ib) l ++ [r]), grown)
      else (RNode b (set_nth kids (choose_least kids ib) child2), grown)
  end.
Proof.
  cbn [rinsert]. destruct (nth_error kids (choose_least kids ib)) as [child|]; [|reflexivity].
  unfold rins2. destruct (rinsert h child ib item) as [c1 g]. reflexivity.
Qed.

Lemma rt_insert_eq t ib item :
  rt_insert t ib item =
  let root0 := match rroot t with Some r => r | None => RNode ib [] end in
  let root2 := rins2 (rheight t) root0 ib item in
  if (length (rkids root2) =? 17)%nat then
    let '(l, r) := rsplit (rbox root2) (rkids root2) in
    {| rheight := S (rheight t); rroot := Some (RNode (rrecalc [l; r]) [l; r]) |}
  else {| rheight := rheight t; rroot := Some root2 |}.
Proof.
  unfold rt_insert, rins2. cbv zeta.
  destruct (rinsert (rheight t) match rroot t with Some r => r | None => RNode ib [] end ib item)
    as [r1 g].
  reflexivity.
Qed.

Lemma set_box_id n : set_box n (rbox n) = n.
Proof. destruct n; reflexivity. Qed.
Lemma rbox_set_box n b : rbox (set_box n b) = b.
Proof. destruct n; reflexivity. Qed.
Lemma rkids_set_box n b : rkids (set_box n b) = rkids n.
Proof. destruct n; reflexivity. Qed.

(* every node has at most m kids *)
Fixpoint max_kids (m : nat) (n : rnode) : Prop :=
  match n with
  | RItem _ _ => True
  | RNode _ kids =>
      (length kids <= m)%nat /\
      (fix all (l : list rnode) : Prop :=
         match l with [] => True | k :: l' => max_kids m k /\ all l' end) kids
  end.

Lemma max_kids_node m b kids :
  max_kids m (RNode b kids) <-> (length kids <= m)%nat /\ Forall (max_kids m) kids.
Proof.
  cbn [max_kids]. apply and_iff_compat_l.
  induction kids as [|k kids IH]; [split; auto|].
  rewrite Forall_cons_iff, <- IH. reflexivity.
Qed.

(* all leaf items below a node, in traversal order *)
Fixpoint ritems (n : rnode) : list Z :=
  match n with
  | RItem _ it => [it]
  | RNode _ kids => flat_map ritems kids
  end.

Lemma ritems_node b kids : ritems (RNode b kids) = flat_map ritems kids.
Proof. reflexivity. Qed.

Lemma ritems_set_box n b : ritems (set_box n b) = ritems n.
Proof. destruct n; reflexivity. Qed.

Lemma perm_seq_S k its :
  Permutation its (map Z.of_nat (seq 0 k)) ->
  Permutation (Z.of_nat k :: its) (map Z.of_nat (seq 0 (S k))).
Proof.
  intros H. rewrite seq_S, map_app. cbn [map]. rewrite Nat.add_0_l.
  eapply perm_trans; [apply perm_skip, H|apply Permutation_cons_append].
Qed.

(* The invariant and the analysis of insertion, for any property G of boxes
   that passes from a box to every box containing it.  With G := nonempty this
   is [rwf] below; with the trivial G nothing is asked of the rectangles. *)
Section RGen.
Variable rect_of : Z -> rect.
Variable G : rect -> Prop.
Hypothesis G_up : forall c b, rcontains c b = true -> G b -> G c.

Definition is_itemG (k : rnode) : Prop :=
  exists it, k = RItem (rect_of it) it /\ G (rect_of it).

(* indexed by height: a node's box has G and is the exact join of its kids'
   boxes (so in particular it covers each of them); kids of a height-0 node are
   items carrying their own rectangle, kids of a height-(S h) node are
   well-formed at height h and hold at most 16 kids.  Nothing is said about
   the node's own kid count. *)
Fixpoint rwfG (h : nat) (n : rnode) : Prop :=
  match n with
  | RItem _ _ => False
  | RNode b kids =>
      G b /\ kids <> [] /\ is_lub b kids /\
      match h with
      | O => Forall is_itemG kids
      | S h' => Forall (fun k => rwfG h' k /\ (length (rkids k) <= 16)%nat) kids
      end
  end.

(* what is asked of a kid of a height-h node *)
Definition kid_wf (h : nat) (k : rnode) : Prop :=
  match h with
  | O => is_itemG k
  | S h' => rwfG h' k /\ (length (rkids k) <= 16)%nat
  end.

Lemma rwfG_node h b kids :
  rwfG h (RNode b kids) <->
  G b /\ kids <> [] /\ is_lub b kids /\ Forall (kid_wf h) kids.
Proof. destruct h; reflexivity. Qed.

Lemma rwfG_inv h n :
  rwfG h n ->
  G (rbox n) /\ rkids n <> [] /\ is_lub (rbox n) (rkids n) /\ Forall (kid_wf h) (rkids n).
Proof. destruct n; [destruct h; contradiction|]. apply rwfG_node. Qed.

Lemma kid_G h k : kid_wf h k -> G (rbox k).
Proof.
  destruct h; cbn [kid_wf].
  - intros (it & -> & H). exact H.
  - intros (H & _). apply (rwfG_inv _ _ H).
Qed.

(* any non-empty collection of admissible kids, boxed by rrecalc, is
   well-formed (this is what rsplit produces) *)
Lemma rwfG_recalc h l : l <> [] -> Forall (kid_wf h) l -> rwfG h (RNode (rrecalc l) l).
Proof.
  intros Hne Hl. apply rwfG_node.
  split; [|split; [exact Hne|split; [apply rrecalc_lub, Hne|exact Hl]]].
  destruct l as [|k l']; [congruence|].
  apply (G_up _ (rbox k)).
  - apply (proj1 (covers_cons _ _ _) (rrecalc_covers _ Hne)).
  - apply (kid_G h), (Forall_inv Hl).
Qed.

(* a 17-kid node splits into two admissible kids of the level above, with
   the same join and the same items *)
Lemma rsplit_wf h n :
  rwfG h n -> length (rkids n) = 17%nat ->
  exists L R, rsplit (rbox n) (rkids n) = (L, R) /\
    Forall (kid_wf (S h)) [L; R] /\ is_lub (rbox n) [L; R] /\
    Permutation (flat_map ritems [L; R]) (ritems n).
Proof.
  intros Hw H17. destruct n as [?b ?i|b kids]; [destruct h; contradiction|].
  apply rwfG_node in Hw. destruct Hw as (_ & _ & Hlub & Hk). cbn [rbox rkids] in *.
  destruct (rsplit_17 _ _ Hlub H17) as (l & r & Es & Hp & Hl & Hr).
  assert (Hnl : l <> []) by (apply length_pos_ne; lia).
  assert (Hnr : r <> []) by (apply length_pos_ne; lia).
  apply (Permutation_Forall (Permutation_sym Hp)), Forall_app in Hk.
  exists (RNode (rrecalc l) l), (RNode (rrecalc r) r).
  split; [exact Es|]. split; [|split].
  - constructor; [|constructor; [|constructor]].
    + split; [apply rwfG_recalc; [exact Hnl|apply Hk]|cbn [rkids]; lia].
    + split; [apply rwfG_recalc; [exact Hnr|apply Hk]|cbn [rkids]; lia].
  - intros c. rewrite (Hlub c), <- (covers_perm c _ _ Hp), covers_app, !covers_cons, covers_nil.
    cbn [rbox]. rewrite (rrecalc_lub l Hnl c), (rrecalc_lub r Hnr c). tauto.
  - cbn [flat_map]. rewrite !ritems_node, app_nil_r, <- flat_map_app.
    apply Permutation_flat_map, Hp.
Qed.

(* one kid of a node replaced by the list [new] whose join is that kid's box
   expanded by ib: the node, its box expanded by ib, stays well-formed *)
Lemma rwfG_replace h b ib item k1 child k2 new kids' :
  rwfG (S h) (RNode b (k1 ++ child :: k2)) ->
  Permutation kids' (k1 ++ new ++ k2) ->
  Forall (kid_wf (S h)) new -> new <> [] ->
  is_lub (rexpand (rbox child) ib) new ->
  Permutation (flat_map ritems new) (item :: ritems child) ->
  rwfG (S h) (RNode (rexpand b ib) kids') /\
  Permutation (flat_map ritems kids') (item :: flat_map ritems (k1 ++ child :: k2)).
Proof.
  intros Hw Hp Hnew Hne Hlubn Hit.
  apply rwfG_node in Hw. destruct Hw as (Hb & _ & Hlub & Hk).
  apply Forall_app in Hk. destruct Hk as (Hk1 & Hk2). apply Forall_cons_iff in Hk2.
  split.
  - apply rwfG_node. split; [apply (G_up _ b (rexpand_covers_l b ib) Hb)|]. split; [|split].
    + intros ->. apply Permutation_nil in Hp.
      destruct k1; [destruct new; [congruence|discriminate]|discriminate].
    + intros c.
      rewrite (covers_perm c _ _ Hp), !covers_app, <- (Hlubn c), !rexpand_lub, (Hlub c),
        covers_app, covers_cons.
      tauto.
    + apply (Permutation_Forall (Permutation_sym Hp)). rewrite !Forall_app. tauto.
  - eapply perm_trans; [apply Permutation_flat_map, Hp|].
    rewrite !flat_map_app. cbn [flat_map]. apply perm_insert_mid, Hit.
Qed.

(* the raw contract of rinsert, in the form that goes through the induction *)
Definition rinsert_post (h : nat) (n : rnode) (ib : rect) (item : Z) : Prop :=
  let r := rinsert h n ib item in
  rbox (fst r) = rbox n /\
  snd r = negb (rcontains (rbox n) ib) /\
  rwfG h (set_box (fst r) (rexpand (rbox n) ib)) /\
  Permutation (ritems (fst r)) (item :: ritems n) /\
  (length (rkids (fst r)) <= S (length (rkids n)))%nat.

Lemma rins2_of_post h n ib item :
  rinsert_post h n ib item ->
  rins2 h n ib item = set_box (fst (rinsert h n ib item)) (rexpand (rbox n) ib).
Proof.
  unfold rinsert_post, rins2. destruct (rinsert h n ib item) as [n1 g]. cbn [fst snd].
  intros (Hb & Hg & _). rewrite Hb. destruct g; [reflexivity|].
  symmetry in Hg. apply negb_false_iff in Hg.
  rewrite (rexpand_absorb _ _ Hg), <- Hb. symmetry. apply set_box_id.
Qed.

Lemma rins2_facts h n ib item :
  rinsert_post h n ib item ->
  let n2 := rins2 h n ib item in
  rwfG h n2 /\ rbox n2 = rexpand (rbox n) ib /\
  Permutation (ritems n2) (item :: ritems n) /\
  (length (rkids n2) <= S (length (rkids n)))%nat.
Proof.
  intros H. cbv zeta. rewrite (rins2_of_post _ _ _ _ H).
  destruct H as (Hb & Hg & Hw & Hp & Hl).
  rewrite rbox_set_box, ritems_set_box, rkids_set_box. auto.
Qed.

Lemma rinsert_post_0 n ib item :
  rwfG 0 n -> ib = rect_of item -> G ib -> rinsert_post 0 n ib item.
Proof.
  intros Hw Hib Hne. destruct n as [?b ?i|b kids]; [contradiction|].
  unfold rinsert_post. rewrite rinsert_0. cbn [fst snd rbox rkids set_box ritems].
  apply rwfG_node in Hw. destruct Hw as (Hb & Hk & Hlub & Hit).
  split; [reflexivity|]. split; [reflexivity|]. split; [|split].
  - apply rwfG_node. split; [apply (G_up _ b (rexpand_covers_l b ib) Hb)|].
    split; [destruct kids; discriminate|].
    split.
    + apply (is_lub_app _ _ _ _ Hlub (is_lub_single (RItem ib item))).
    + apply Forall_app. split; [exact Hit|]. constructor; [|constructor].
      exists item. subst ib. split; [reflexivity|exact Hne].
  - rewrite flat_map_app. cbn [flat_map ritems app].
    apply Permutation_sym, Permutation_cons_append.
  - rewrite app_length. cbn [length]. lia.
Qed.

(* the child reports growth exactly when it does not contain ib; the node
   then grows exactly when it does not *)
Lemma grown_eq b cb ib :
  rcontains b cb = true ->
  (if negb (rcontains cb ib) then negb (rcontains b ib) else false) = negb (rcontains b ib).
Proof.
  intros Hcb. destruct (rcontains cb ib) eqn:Hci; cbn [negb]; [|reflexivity].
  rewrite (rcontains_trans _ _ _ Hcb Hci). reflexivity.
Qed.

Lemma rinsert_post_S h :
  (forall n ib item, rwfG h n -> ib = rect_of item -> G ib -> rinsert_post h n ib item) ->
  forall n ib item, rwfG (S h) n -> ib = rect_of item -> G ib ->
                    rinsert_post (S h) n ib item.
Proof.
  intros IH n ib item Hw Hib Hne. destruct n as [?b ?i|b kids]; [contradiction|].
  destruct (proj1 (rwfG_node _ _ _) Hw) as (_ & Hk & Hlub & Hkids).
  unfold rinsert_post. rewrite rinsert_S.
  destruct (nth_split_set kids (choose_least kids ib) (choose_least_lt kids ib Hk))
    as (k1 & child & k2 & Ekids & Enth & Eset).
  rewrite Enth. cbv zeta. rewrite !Eset. subst kids.
  (* the child and what insertion does to it *)
  destruct (Forall_elt _ _ _ Hkids) as (Hcw & Hcl).
  pose proof (IH child ib item Hcw Hib Hne) as Hpost.
  pose proof (rins2_facts _ _ _ _ Hpost) as Hf. cbv zeta in Hf.
  destruct Hpost as (_ & Hg & _).
  set (child2 := rins2 h child ib item) in *.
  destruct Hf as (Hw2 & Hb2 & Hp2 & Hl2).
  rewrite Hg, (grown_eq b _ ib (Forall_elt _ _ _ (is_lub_covers _ _ Hlub))).
  destruct (Nat.eqb_spec (length (rkids child2)) 17) as [H17|H17].
  - (* the child overflows and is split *)
    destruct (rsplit_wf h child2 Hw2 H17) as (L & R & Es & HLR & HlubLR & HpLR).
    rewrite Es, Eset. cbn [fst snd rbox rkids set_box].
    destruct (rwfG_replace h b ib item k1 child k2 [L; R] ((k1 ++ L :: k2) ++ [R]) Hw)
      as (Hw' & Hp').
    + rewrite <- app_assoc. apply Permutation_app_head. cbn [app]. apply perm_skip.
      apply Permutation_sym, Permutation_cons_append.
    + exact HLR.
    + discriminate.
    + rewrite <- Hb2. exact HlubLR.
    + exact (perm_trans HpLR Hp2).
    + split; [reflexivity|]. split; [reflexivity|]. split; [exact Hw'|]. split; [exact Hp'|].
      rewrite !app_length. cbn [length]. lia.
  - cbn [fst snd rbox rkids set_box].
    destruct (rwfG_replace h b ib item k1 child k2 [child2] (k1 ++ child2 :: k2) Hw)
      as (Hw' & Hp').
    + apply Permutation_refl.
    + constructor; [|constructor]. split; [exact Hw2|lia].
    + discriminate.
    + rewrite <- Hb2. apply is_lub_single.
    + cbn [flat_map]. rewrite app_nil_r. exact Hp2.
    + split; [reflexivity|]. split; [reflexivity|]. split; [exact Hw'|]. split; [exact Hp'|].
      rewrite !app_length. cbn [length]. lia.
Qed.

Lemma rinsert_post_all h : forall n ib item,
  rwfG h n -> ib = rect_of item -> G ib -> rinsert_post h n ib item.
Proof.
  induction h as [|h IH].
  - apply rinsert_post_0.
  - apply rinsert_post_S, IH.
Qed.

(* rwfG + a bound on the root's own count gives the global count bound *)
Lemma rwf_max_kids h : forall n m,
  rwfG h n -> (16 <= m)%nat -> (length (rkids n) <= m)%nat -> max_kids m n.
Proof.
  induction h as [|h IH]; intros n m Hw Hm Hl; destruct n as [?b ?i|b kids]; try contradiction;
    apply max_kids_node; (split; [exact Hl|]);
    apply rwfG_node in Hw; destruct Hw as (_ & _ & _ & Hk);
    (eapply Forall_impl; [|exact Hk]).
  - intros k (it & -> & _). exact I.
  - intros k (Hwk & Hlk). apply IH; [exact Hwk|exact Hm|lia].
Qed.

Lemma kid_max_kids h k : kid_wf h k -> max_kids 16 k.
Proof.
  destruct h; cbn [kid_wf].
  - intros (it & -> & _). exact I.
  - intros (Hw & Hl). apply (rwf_max_kids h); [exact Hw|lia|exact Hl].
Qed.

Lemma rwf_desc_max_kids h n : rwfG h n -> Forall (max_kids 16) (rkids n).
Proof.
  intros Hw. eapply Forall_impl; [apply kid_max_kids|]. apply (rwfG_inv _ _ Hw).
Qed.

Lemma ritems_in_box h : forall n it,
  rwfG h n -> In it (ritems n) -> rcontains (rbox n) (rect_of it) = true.
Proof.
  induction h as [|h IH]; intros n it Hw Hin; destruct n as [?b ?i|b kids]; try contradiction;
    apply rwfG_node in Hw; destruct Hw as (_ & _ & Hlub & Hkids);
    rewrite ritems_node in Hin; apply in_flat_map in Hin; destruct Hin as (k & Hk & Hit);
    pose proof (Forall_In _ _ _ (is_lub_covers _ _ Hlub) Hk) as Hc;
    pose proof (Forall_In _ _ _ Hkids Hk) as Hkid; cbn [rbox].
  - destruct Hkid as (it' & -> & _). destruct Hit as [->|[]]. exact Hc.
  - eapply rcontains_trans; [exact Hc|]. apply IH; [apply Hkid|exact Hit].
Qed.

(* a node whose box misses the query holds no item that meets it *)
Lemma rsearch_pruned h n q :
  rwfG h n -> rect_intersects_rect q (rbox n) = false ->
  filter (fun it => rect_intersects_rect (rect_of it) q) (ritems n) = [].
Proof.
  intros Hw Hq. apply filter_none. intros it Hit.
  destruct (rect_intersects_rect (rect_of it) q) eqn:Hi; [|reflexivity].
  rewrite (contains_intersects _ _ _ (ritems_in_box _ _ _ Hw Hit) Hi) in Hq. discriminate.
Qed.

Lemma rsearch_eq h : forall n q,
  rwfG h n ->
  rsearch rect_of n q = filter (fun it => rect_intersects_rect (rect_of it) q) (ritems n).
Proof.
  induction h as [|h IH]; intros n q Hw; destruct n as [?b ?i|b kids]; try contradiction;
    cbn [rsearch]; destruct (rect_intersects_rect q b) eqn:Hq; cbn [negb];
    try (symmetry; apply (rsearch_pruned _ _ _ Hw Hq));
    rewrite ritems_node, !flat_map_concat_map, <- concat_filter_map, map_map; f_equal;
    apply map_ext_in; intros k Hk;
    apply rwfG_node in Hw; destruct Hw as (_ & _ & _ & Hkids);
    pose proof (Forall_In _ _ _ Hkids Hk) as Hkid.
  - destruct Hkid as (it & -> & _). cbn [rsearch ritems filter].
    destruct (rect_intersects_rect (rect_of it) q); reflexivity.
  - apply IH, Hkid.
Qed.

(* the tree built by successive inserts: state after k of them *)
Definition tree_inv (k : nat) (t : rtree) : Prop :=
  match rroot t with
  | None => k = 0%nat /\ rheight t = 0%nat
  | Some r => (0 < k)%nat /\ kid_wf (S (rheight t)) r /\
              Permutation (ritems r) (map Z.of_nat (seq 0 k))
  end.

Lemma rt_insert_inv k t :
  tree_inv k t -> G (rect_of (Z.of_nat k)) ->
  tree_inv (S k) (rt_insert t (rect_of (Z.of_nat k)) (Z.of_nat k)).
Proof.
  intros Hinv Hne. rewrite rt_insert_eq. cbv zeta.
  set (ib := rect_of (Z.of_nat k)) in *. set (item := Z.of_nat k).
  unfold tree_inv in Hinv. destruct (rroot t) as [r|].
  - destruct Hinv as (Hk & (Hw & Hl) & Hp).
    pose proof (rins2_facts _ _ _ _ (rinsert_post_all (rheight t) r ib item Hw eq_refl Hne)) as Hf.
    cbv zeta in Hf. set (root2 := rins2 (rheight t) r ib item) in *.
    destruct Hf as (Hw2 & _ & Hp2 & Hl2).
    pose proof (perm_trans Hp2 (perm_seq_S _ _ Hp)) as Hp3.
    destruct (Nat.eqb_spec (length (rkids root2)) 17) as [H17|H17].
    + destruct (rsplit_wf _ _ Hw2 H17) as (L & R & Es & HLR & _ & HpLR). rewrite Es.
      unfold tree_inv. cbn [rroot rheight]. split; [lia|]. split; [split|].
      * apply rwfG_recalc; [discriminate|exact HLR].
      * cbn [rkids length]. lia.
      * rewrite ritems_node. exact (perm_trans HpLR Hp3).
    + split; [lia|]. split; [split; [exact Hw2|lia]|exact Hp3].
  - destruct Hinv as (-> & Hh). rewrite Hh.
    unfold rins2. rewrite rinsert_0, rcontains_refl. cbn [negb rkids length Nat.eqb app].
    unfold tree_inv. cbn [rroot rheight]. rewrite ?Hh.
    split; [lia|]. split; [split|].
    + apply rwfG_node. split; [exact Hne|]. split; [discriminate|]. split.
      * apply (is_lub_single (RItem ib item)).
      * constructor; [|constructor]. exists item. split; [reflexivity|exact Hne].
    + cbn [rkids length]. lia.
    + apply Permutation_refl.
Qed.

Lemma rbuild_S n :
  rbuild rect_of (S n) = rt_insert (rbuild rect_of n) (rect_of (Z.of_nat n)) (Z.of_nat n).
Proof.
  unfold rbuild. rewrite seq_S, fold_left_app. cbn [fold_left]. rewrite Nat.add_0_l. reflexivity.
Qed.

Lemma rbuild_inv n :
  (forall i, (i < n)%nat -> G (rect_of (Z.of_nat i))) -> tree_inv n (rbuild rect_of n).
Proof.
  induction n as [|n IH]; intros H.
  - unfold tree_inv. cbn. split; reflexivity.
  - rewrite rbuild_S. apply rt_insert_inv.
    + apply IH. intros i Hi. apply H. lia.
    + apply (H n). lia.
Qed.

End RGen.

(* with the trivial condition nothing is asked of the rectangles *)
Lemma rbuild_inv_any rect_of n : tree_inv rect_of (fun _ => True) n (rbuild rect_of n).
Proof. apply rbuild_inv; trivial. Qed.

Section RProofs.
Variable rect_of : Z -> rect.

Definition is_item (k : rnode) : Prop :=
  exists it, k = RItem (rect_of it) it /\ nonempty (rect_of it).

(* [rwfG] with G := nonempty, written out *)
Fixpoint rwf (h : nat) (n : rnode) : Prop :=
  match n with
  | RItem _ _ => False
  | RNode b kids =>
      nonempty b /\ kids <> [] /\ is_lub b kids /\
      match h with
      | O => Forall is_item kids
      | S h' => Forall (fun k => rwf h' k /\ (length (rkids k) <= 16)%nat) kids
      end
  end.

(* well-formed except that the node's own box has not yet been expanded by ib
   (rinsert leaves that to its caller) *)
Definition rwf_but (h : nat) (ib : rect) (n : rnode) : Prop :=
  rwf h (set_box n (rexpand (rbox n) ib)).

(* the two fixpoints have the same body once G is nonempty *)
Lemma rwf_rwfG h n : rwf h n <-> rwfG rect_of nonempty h n.
Proof. reflexivity. Qed.

Lemma rwf_kids_ne h n : rwf h n -> rkids n <> [].
Proof. intros H. apply rwf_rwfG, rwfG_inv in H. apply H. Qed.

(* a node's box covers the box of each kid (at height 0: the rectangle of each item) *)
Lemma rwf_kid_covered h n k :
  rwf h n -> In k (rkids n) -> rcontains (rbox n) (rbox k) = true.
Proof.
  intros H. apply rwf_rwfG, rwfG_inv in H. destruct H as (_ & _ & H & _).
  apply (Forall_In _ _ _ (is_lub_covers _ _ H)).
Qed.

Lemma rwf_item_covered n it :
  rwf 0 n -> In (RItem (rect_of it) it) (rkids n) -> rcontains (rbox n) (rect_of it) = true.
Proof. apply (rwf_kid_covered 0 n (RItem (rect_of it) it)). Qed.

Theorem rinsert_spec h n ib item :
  rwf h n -> ib = rect_of item -> nonempty ib -> (length (rkids n) <= 16)%nat ->
  let '(n', g) := rinsert h n ib item in
  rwf_but h ib n' /\
  (g = false -> rcontains (rbox n') ib = true) /\
  Permutation (ritems n') (item :: ritems n) /\
  (length (rkids n') <= 17)%nat /\
  Forall (max_kids 16) (rkids n').
Proof.
  intros Hw Hib Hne Hl. apply rwf_rwfG in Hw.
  pose proof (rinsert_post_all rect_of nonempty nonempty_mono h n ib item Hw Hib Hne) as Hpost.
  unfold rinsert_post in Hpost. destruct (rinsert h n ib item) as [n' g].
  cbn [fst snd] in Hpost. destruct Hpost as (Hb & Hg & Hw' & Hp & Hl').
  unfold rwf_but. rewrite Hb, rwf_rwfG.
  split; [exact Hw'|]. split; [|split; [exact Hp|split; [lia|]]].
  - intros ->. symmetry in Hg. apply negb_false_iff in Hg. exact Hg.
  - rewrite <- (rkids_set_box n' (rexpand (rbox n) ib)).
    apply (rwf_desc_max_kids _ _ _ _ Hw').
Qed.

Theorem rsearch_exact h n q :
  rwf h n ->
  Permutation (rsearch rect_of n q)
              (filter (fun it => rect_intersects_rect (rect_of it) q) (ritems n)).
Proof.
  intros Hw. apply rwf_rwfG in Hw. rewrite (rsearch_eq _ _ h n q Hw). apply Permutation_refl.
Qed.

(* exactness asks nothing of the rectangles *)
Theorem rbuild_search_any (n : nat) (q : rect) :
  match rroot (rbuild rect_of n) with
  | None => n = 0%nat
  | Some r => Permutation (rsearch rect_of r q)
                (filter (fun it => rect_intersects_rect (rect_of it) q) (map Z.of_nat (seq 0 n)))
  end.
Proof.
  pose proof (rbuild_inv_any rect_of n) as Hinv.
  unfold tree_inv in Hinv. destruct (rroot (rbuild rect_of n)) as [r|].
  - destruct Hinv as (_ & (Hw & _) & Hp).
    rewrite (rsearch_eq _ _ _ _ q Hw). apply Permutation_filter', Hp.
  - apply Hinv.
Qed.

Theorem rbuild_search_exact (n : nat) (q : rect) :
  (forall i, (i < n)%nat ->
     let r := rect_of (Z.of_nat i) in px (fst r) <= px (snd r) /\ py (fst r) <= py (snd r)) ->
  match rroot (rbuild rect_of n) with
  | None => n = 0%nat
  | Some r => Permutation (rsearch rect_of r q)
                (filter (fun it => rect_intersects_rect (rect_of it) q) (map Z.of_nat (seq 0 n)))
  end.
Proof. intros _. apply rbuild_search_any. Qed.

Corollary rbuild_search_nodup (n : nat) (q : rect) :
  (forall i, (i < n)%nat ->
     let r := rect_of (Z.of_nat i) in px (fst r) <= px (snd r) /\ py (fst r) <= py (snd r)) ->
  match rroot (rbuild rect_of n) with
  | None => True
  | Some r => NoDup (rsearch rect_of r q)
  end.
Proof.
  intros H. pose proof (rbuild_search_exact n q H) as Hs.
  destruct (rroot (rbuild rect_of n)) as [r|]; [|exact I].
  apply (perm_filter_seq_NoDup _ _ _ Hs).
Qed.

(* after every insert all nodes hold <= 16 kids and all leaves are at depth
   = height (rwf is indexed by the height) *)
Theorem rbuild_counts (n : nat) :
  (forall i, (i < n)%nat ->
     let r := rect_of (Z.of_nat i) in px (fst r) <= px (snd r) /\ py (fst r) <= py (snd r)) ->
  match rroot (rbuild rect_of n) with
  | None => n = 0%nat
  | Some r => max_kids 16 r /\ rwf (rheight (rbuild rect_of n)) r
  end.
Proof.
  intros H. pose proof (rbuild_inv rect_of nonempty nonempty_mono n H) as Hinv.
  unfold tree_inv in Hinv. destruct (rroot (rbuild rect_of n)) as [r|].
  - destruct Hinv as (_ & Hr & _). split; [apply (kid_max_kids _ _ _ _ Hr)|apply rwf_rwfG, Hr].
  - apply Hinv.
Qed.

(* the transient state inside rt_insert: the root returned by rinsert (box
   expanded by the caller) never holds more than 17 kids anywhere, and only
   the root itself can hold 17 *)
Theorem rbuild_transient (n : nat) :
  (forall i, (i < S n)%nat ->
     let r := rect_of (Z.of_nat i) in px (fst r) <= px (snd r) /\ py (fst r) <= py (snd r)) ->
  match rroot (rbuild rect_of n) with
  | None => True
  | Some r =>
      let root2 := rins2 (rheight (rbuild rect_of n)) r (rect_of (Z.of_nat n)) (Z.of_nat n) in
      max_kids 17 root2 /\ Forall (max_kids 16) (rkids root2)
  end.
Proof.
  intros H.
  pose proof (rbuild_inv rect_of nonempty nonempty_mono n (fun i Hi => H i (Nat.lt_lt_succ_r _ _ Hi)))
    as Hinv.
  unfold tree_inv in Hinv. destruct (rroot (rbuild rect_of n)) as [r|]; [|exact I].
  destruct Hinv as (_ & (Hw & Hl) & _).
  pose proof (rins2_facts _ _ _ _ _ _ (rinsert_post_all rect_of nonempty nonempty_mono _ r _ _ Hw eq_refl
                                          (H n (Nat.lt_succ_diag_r n)))) as Hf.
  cbv zeta in Hf |- *. destruct Hf as (Hw2 & _ & _ & Hl2).
  split; [apply (rwf_max_kids _ _ _ _ 17 Hw2); lia|apply (rwf_desc_max_kids _ _ _ _ Hw2)].
Qed.

End RProofs.

Print Assumptions rinsert_spec.
Print Assumptions rsplit_spec.
Print Assumptions rsplit_17.
Print Assumptions choose_least_lt.
Print Assumptions rsearch_exact.
Print Assumptions rbuild_search_exact.
Print Assumptions rbuild_search_nodup.
Print Assumptions rbuild_counts.
Print Assumptions rbuild_transient.
