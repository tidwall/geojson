(* SphereRectFull.v — property C14 over the reals, all branches: the rectangle
   RectFromCenter returns (latitude band, tangent longitude, clamping at a pole,
   widening to the full longitude range when a pole is reached or the band
   crosses the antimeridian) contains every location within the angular radius
   of the centre, longitudes read modulo a full turn.  Excluded: the radii below
   the resolution guard (degenerate rectangle by design) and the measure-zero
   case of a disc exactly tangent to a pole (the quotient is 0/0 there). *)
From Coq Require Import Reals Lra Lia.
From GJ Require Import Sphere SphereRect.
Open Scope R_scope.

(* geo.go RectFromCenter after the guard, in radians; r = meters / earthRadius *)
Definition rfc (lat0 lon0 r : R) : R * R * R * R :=
  let p0 := rad lat0 in let l0 := rad lon0 in
  let mnLat := p0 - r in let mxLat := p0 + r in
  let d := atan (sin r / sqrt (cos mxLat * cos mnLat)) in
  let mnLon := l0 - d in let mxLon := l0 + d in
  let '(mnLon1, mxLat1, mxLon1) := if Rlt_dec (PI / 2) mxLat then (- PI, PI / 2, PI) else (mnLon, mxLat, mxLon) in
  let '(mnLat2, mnLon2, mxLon2) := if Rlt_dec mnLat (- (PI / 2)) then (- (PI / 2), - PI, PI) else (mnLat, mnLon1, mxLon1) in
  let '(mnLon3, mxLon3) := if Rlt_dec mnLon2 (- PI) then (- PI, PI) else if Rlt_dec PI mxLon2 then (- PI, PI) else (mnLon2, mxLon2) in
  (mnLat2, mnLon3, mxLat1, mxLon3).

Definition lon_ok (d : R) : Prop := -180 <= d <= 180.

Lemma rad_lon_bounds d : lon_ok d -> - PI <= rad d <= PI.
Proof. unfold lon_ok, rad. pose proof PI_RGT_0. intros [A B]. split; nra. Qed.

Lemma rad_add_turn (lon : R) (j : Z) : rad (lon + 360 * IZR j) = rad lon + 2 * PI * IZR j.
Proof. unfold rad. lra. Qed.

Lemma hav_turn (lat0 lon0 lat lon : R) (j : Z) : hav lat0 lon0 lat (lon + 360 * IZR j) = hav lat0 lon0 lat lon.
Proof.
  rewrite !hav_cos, rad_add_turn.
  replace (rad lon + 2 * PI * IZR j - rad lon0) with (rad lon - rad lon0 + 2 * IZR j * PI) by ring.
  rewrite cos_period_Z. reflexivity.
Qed.

Lemma Rabs_le_inv (x a : R) : Rabs x <= a -> - a <= x <= a.
Proof. unfold Rabs. destruct (Rcase_abs x); lra. Qed.

(* what the branches amount to: the latitude band clamped at the poles, and either the full longitude
   range or, when no pole is reached and the band stays within [-PI, PI], the band lon0 +- d *)
Lemma rfc_cases (lat0 lon0 r : R) :
  let '(mnLat, mnLon, mxLat, mxLon) := rfc lat0 lon0 r in
    mnLat = Rmax (- (PI / 2)) (rad lat0 - r) /\ mxLat = Rmin (PI / 2) (rad lat0 + r) /\
    ((mnLon = - PI /\ mxLon = PI) \/
     (rad lat0 + r <= PI / 2 /\ - (PI / 2) <= rad lat0 - r /\ - PI <= mnLon /\ mxLon <= PI /\
      mnLon = rad lon0 - atan (sin r / sqrt (cos (rad lat0 + r) * cos (rad lat0 - r))) /\
      mxLon = rad lon0 + atan (sin r / sqrt (cos (rad lat0 + r) * cos (rad lat0 - r))))).
Proof.
  pose proof PI_RGT_0 as Hpi. unfold rfc. cbv zeta.
  set (d := atan (sin r / sqrt (cos (rad lat0 + r) * cos (rad lat0 - r)))).
  destruct (Rlt_dec (PI / 2) (rad lat0 + r)) as [N|N]; destruct (Rlt_dec (rad lat0 - r) (- (PI / 2))) as [S|S];
    try (destruct (Rlt_dec (- PI) (- PI)) as [F|_]; [lra|]; destruct (Rlt_dec PI PI) as [F|_]; [lra|]).
  4: destruct (Rlt_dec (rad lon0 - d) (- PI)) as [WL|WL]; [|destruct (Rlt_dec PI (rad lon0 + d)) as [WR|WR] ].
  all: (split; [unfold Rmax; destruct (Rle_dec _ _); lra|]); (split; [unfold Rmin; destruct (Rle_dec _ _); lra|]).
  1-5: left; split; reflexivity.
  right. repeat split; lra.
Qed.

Theorem rfc_covers (lat0 lon0 r lat lon : R) :
  lat_ok lat0 -> lon_ok lon0 -> lat_ok lat -> lon_ok lon -> 0 <= r <= PI ->
  Rabs (rad lat0) + r <> PI / 2 ->
  hav lat0 lon0 lat lon <= sin (r / 2) * sin (r / 2) ->
  let '(mnLat, mnLon, mxLat, mxLon) := rfc lat0 lon0 r in
  mnLat <= rad lat <= mxLat /\
  exists j : Z, (-1 <= j <= 1)%Z /\ mnLon <= rad lon + 2 * PI * IZR j <= mxLon.
Proof.
  intros H0 HL0 H1 HL1 Hr Htan Hh. pose proof PI_RGT_0 as Hpi.
  pose proof (Rabs_le_inv _ _ (disc_latitude_band lat0 lon0 lat lon r H0 H1 Hr Hh)) as Hb.
  pose proof (rad_lat_bounds lat H1) as B1. pose proof (rad_lon_bounds lon HL1) as BL1.
  pose proof (rfc_cases lat0 lon0 r) as Hrfc. destruct (rfc lat0 lon0 r) as [ [ [mnLat lo] mxLat] hi].
  destruct Hrfc as (-> & -> & Hlon).
  split; [split; [apply Rmax_lub|apply Rmin_glb]; lra|].
  destruct Hlon as [[-> ->]|(North & South & WrapL & WrapR & -> & ->)].
  { exists 0%Z. split; [lia|]. rewrite Rmult_0_r, Rplus_0_r. exact BL1. }
  (* neither pole is reached, so the band is the tangent longitude *)
  assert (Hclear : Rabs (rad lat0) + r < PI / 2) by (unfold Rabs in *; destruct (Rcase_abs (rad lat0)); lra).
  rewrite (rect_lon_is_tangent_longitude _ _ (proj1 Hr) Hclear) in *.
  (* choose the turn that brings the longitude difference into [-PI, PI] *)
  pose proof (rad_lon_bounds lon0 HL0) as BL0.
  assert (Hj : exists j : Z, (-1 <= j <= 1)%Z /\ - PI <= rad lon + 2 * PI * IZR j - rad lon0 <= PI).
  { destruct (Rlt_dec PI (rad lon - rad lon0)) as [Big|NotBig]; [exists (-1)%Z; split; [lia|lra]|].
    destruct (Rlt_dec (rad lon - rad lon0) (- PI)) as [Small|NotSmall]; [exists 1%Z; split; [lia|lra]|].
    exists 0%Z. split; [lia|lra]. }
  destruct Hj as (j & Hj & Hrange). exists j. split; [exact Hj|].
  pose proof (disc_longitude_band lat0 lon0 lat (lon + 360 * IZR j) r H0 H1 (proj1 Hr) Hclear) as Band.
  rewrite rad_add_turn, hav_turn in Band.
  apply Rabs_le_inv in Band; [lra|exact Hrange|exact Hh].
Qed.

Theorem rfc_in_bounds (lat0 lon0 r : R) :
  let '(mnLat, mnLon, mxLat, mxLon) := rfc lat0 lon0 r in
  - (PI / 2) <= mnLat /\ mxLat <= PI / 2 /\ - PI <= mnLon /\ mxLon <= PI.
Proof.
  pose proof (rfc_cases lat0 lon0 r) as Hrfc. destruct (rfc lat0 lon0 r) as [ [ [mnLat lo] mxLat] hi].
  destruct Hrfc as (-> & -> & Hlon).
  split; [apply Rmax_l|]. split; [apply Rmin_l|]. destruct Hlon as [[-> ->]|(_ & _ & WrapL & WrapR & _)]; lra.
Qed.

Print Assumptions rfc_covers.
