(* Crossing.v — the general crossing-parity theorem behind "the answer does not depend on the
   direction of the ray" (properties C01 / C12).
   For a non-horizontal grid segment L -> H (L lower) whose ends are off the boundary of a closed
   ring, the ray-to-the-right parities at L and H differ exactly by the parity of the number of
   ring edges that cross the segment under a half-open rule along it: an edge counts when one of
   its ends is strictly right of the line L->H and the other is on or left of it, and L, H are
   strictly on opposite sides of the edge.  (Jordan.v has the case "no edge meets", there also for a
   horizontal segment.)
   Taking H far away gives: the ray to the right and the ray along any non-horizontal direction
   count the same parity. *)
From GJ Require Import Base KernelSpec RingSpec KernelProofs IntersectsProofs PipProofs Jordan.
Import ListNotations.
Open Scope Z_scope.

Definition soppb (x y : Z) : bool := ((x <? 0) && (0 <? y)) || ((y <? 0) && (0 <? x)).

Lemma soppb_neg x y : soppb (- x) (- y) = soppb x y.
Proof. unfold soppb. apply bool_eq_iff. rewrite !orb_true_iff, !andb_true_iff, !Z.ltb_lt. lia. Qed.

(* The abstract identity, all sign patterns: for a rising edge (ay < by_), from which the falling edge
   follows by reversing it, and for a level one.  R is the cross product of the two directions; the
   equations are those of Jordan.edge_arith_nomeet.  The side conditions say that L and H are off the
   edge; they matter only where cL or cH vanishes.  The three cases are kept apart because [nia] pays
   for every disjunction in its context: the rising edge needs none about minima and maxima, nor the
   ones about the signs of ca, cb that the level edge needs. *)
Lemma edge_arith_up ay by_ ly hy cL cH ca cb R :
  ly < hy -> ay < by_ -> (by_ - ay) * ca + (hy - ly) * cL + (ay - ly) * R = 0 -> cH = cL + R -> cb = ca - R ->
  (cL <> 0 \/ ly < ay \/ by_ < ly) ->
  (cH <> 0 \/ hy < ay \/ by_ < hy) ->
  xorb (xorb (crs ay by_ ly cL) (crs ay by_ hy cH)) (xorb (fRz ly hy ay ca) (fRz ly hy by_ cb)) =
  xorb (ca <? 0) (cb <? 0) && soppb cL cH.
Proof.
  intros Hy Hu E1 E2 E3 DL DH. subst cH cb.
  assert (E1b : (by_ - ay) * (ca - R) + (hy - ly) * cL + (by_ - ly) * R = 0) by lia.
  assert (E1H : (by_ - ay) * ca + (hy - ly) * (cL + R) + (ay - hy) * R = 0) by lia.
  assert (E1bH : (by_ - ay) * (ca - R) + (hy - ly) * (cL + R) + (by_ - hy) * R = 0) by lia.
  rewrite !(crs_up ay by_) by lia. unfold fRz, soppb.
  (* the side conditions take no part in pruning the cases; they are needed at the two leaves where cL or cH
     vanishes, and elsewhere [nia] is cheaper without them *)
  revert DL DH. dcmp; try reflexivity; intros DL DH; exfalso; first [clear DL DH; nia | nia].
Qed.

(* an edge that goes down is the reversed edge going up: every cross product changes sign *)
Lemma edge_arith_slant ay by_ ly hy cL cH ca cb R :
  ly < hy -> ay <> by_ -> (by_ - ay) * ca + (hy - ly) * cL + (ay - ly) * R = 0 -> cH = cL + R -> cb = ca - R ->
  (cL <> 0 \/ ly < Z.min ay by_ \/ Z.max ay by_ < ly) ->
  (cH <> 0 \/ hy < Z.min ay by_ \/ Z.max ay by_ < hy) ->
  xorb (xorb (crs ay by_ ly cL) (crs ay by_ hy cH)) (xorb (fRz ly hy ay ca) (fRz ly hy by_ cb)) =
  xorb (ca <? 0) (cb <? 0) && soppb cL cH.
Proof.
  intros Hy Hu E1 E2 E3 DL DH. destruct (Z.lt_trichotomy ay by_) as [Up|[E|Down]]; [|contradiction|].
  - apply (edge_arith_up _ _ _ _ _ _ _ _ R); try assumption; lia.
  - rewrite <- !(crs_swap ay by_), (xorb_comm (fRz ly hy ay ca)), (xorb_comm (ca <? 0)), <- (soppb_neg cL cH).
    apply (edge_arith_up _ _ _ _ _ _ _ _ (- R)); lia.
Qed.

Lemma edge_arith_flat y ly hy cL cH ca cb R :
  ly < hy -> (hy - ly) * cL + (y - ly) * R = 0 -> cH = cL + R -> cb = ca - R ->
  (cL = 0 -> y = ly -> (0 < ca /\ 0 < cb) \/ (ca < 0 /\ cb < 0)) ->
  (cH = 0 -> y = hy -> (0 < ca /\ 0 < cb) \/ (ca < 0 /\ cb < 0)) ->
  xorb (xorb (crs y y ly cL) (crs y y hy cH)) (xorb (fRz ly hy y ca) (fRz ly hy y cb)) =
  xorb (ca <? 0) (cb <? 0) && soppb cL cH.
Proof.
  intros Hy E1 E2 E3 DL DH. subst cH cb.
  assert (E1H : (hy - ly) * (cL + R) + (y - hy) * R = 0) by lia.
  unfold crs, fRz, soppb.
  revert DL DH. dcmp; try reflexivity; intros DL DH; exfalso; first [clear DL DH; nia | nia].
Qed.

Definition Xc (L H : pt) (e : seg) : bool :=
  xorb (cross L H (fst e) <? 0) (cross L H (snd e) <? 0) &&
  soppb (cross (fst e) (snd e) L) (cross (fst e) (snd e) H).

(* a horizontal edge level with L (or H) that misses it has both ends on one side of L->H *)
Lemma flat_same_side (a b L H p : pt) : py a = py b -> py L < py H -> p = L \/ p = H -> py a = py p ->
  ~ on_seg (a, b) p ->
  (0 < cross L H a /\ 0 < cross L H b) \/ (cross L H a < 0 /\ cross L H b < 0).
Proof.
  unfold on_seg, cross. intros E Hy Hp F N. rewrite <- E, F in *.
  assert (px p < Z.min (px a) (px b) \/ Z.max (px a) (px b) < px p) by lia.
  destruct Hp; subst p; nia.
Qed.

Lemma slant_off_edge (a b p : pt) : py a <> py b -> ~ on_seg (a, b) p ->
  cross a b p <> 0 \/ py p < Z.min (py a) (py b) \/ Z.max (py a) (py b) < py p.
Proof.
  intros E N. destruct (Z.eq_dec (cross a b p) 0) as [C|C]; [right|left; exact C].
  destruct (Z_lt_dec (py p) (Z.min (py a) (py b))); [left; assumption|right].
  destruct (Z_lt_dec (Z.max (py a) (py b)) (py p)); [assumption|exfalso].
  apply N. apply collinear_in_y; [exact C|exact E|lia].
Qed.

Lemma edge_general (a b L H : pt) : py L < py H ->
  on_segb (a, b) L = false -> on_segb (a, b) H = false ->
  xorb (gdiff L H (a, b)) (ftel L H (a, b)) = Xc L H (a, b).
Proof.
  intros Hy OL OH. unfold gdiff, ftel, Xc. cbn [fst snd]. rewrite !crossesb_crs.
  change (fR L H a) with (fRz (py L) (py H) (py a) (cross L H a)).
  change (fR L H b) with (fRz (py L) (py H) (py b) (cross L H b)).
  assert (NL : ~ on_seg (a, b) L) by (rewrite <- on_segb_iff; congruence).
  assert (NH : ~ on_seg (a, b) H) by (rewrite <- on_segb_iff; congruence).
  pose proof (id_E1 a b L H) as E1.
  destruct (Z.eq_dec (py a) (py b)) as [E|E].
  - rewrite <- E in *. rewrite Z.sub_diag, Z.mul_0_l, Z.add_0_l in E1.
    apply (edge_arith_flat _ _ _ _ _ _ _ (rxs a b L H)); [exact Hy|exact E1|apply id_B|apply id_D| |].
    + intros _ F. apply (flat_same_side a b L H L); auto.
    + intros _ F. apply (flat_same_side a b L H H); auto.
  - apply (edge_arith_slant _ _ _ _ _ _ _ _ (rxs a b L H)); [exact Hy|exact E|exact E1|apply id_B|apply id_D| |].
    + exact (slant_off_edge a b L E NL).
    + exact (slant_off_edge a b H E NH).
Qed.

Theorem crossing_parity (ps : list pt) (L H : pt) : py L < py H ->
  on_boundaryb (ring_edges ps) L = false -> on_boundaryb (ring_edges ps) H = false ->
  xorb (parityb (ring_edges ps) L) (parityb (ring_edges ps) H) = xfold (Xc L H) (ring_edges ps).
Proof.
  intros Hy BL BH. rewrite parity_diff.
  pose proof (ring_edges_telescope (fR L H) ps) as TE.
  change (fun s : seg => xorb (fR L H (fst s)) (fR L H (snd s))) with (ftel L H) in TE.
  rewrite <- (xorb_false_r (xfold (gdiff L H) (ring_edges ps))), <- TE, xfold_xor.
  apply xfold_ext. intros [a b] Hin. apply edge_general; [exact Hy| |].
  - apply (off_boundary_edge _ _ _ BL Hin).
  - apply (off_boundary_edge _ _ _ BH Hin).
Qed.

Print Assumptions crossing_parity.
