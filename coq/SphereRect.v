(* SphereRect.v — property C14 over the reals: the longitude band of
   RectFromCenter covers the disc, and the angle the code computes (since the
   repair 7efb257: atan2 (sin r) (sqrt (cos (lat+r) * cos (lat-r)))) is the
   tangent longitude asin (sin r / cos lat) of that band.  Together with
   Sphere.disc_latitude_band: when the disc reaches neither a pole nor the
   antimeridian, every location within the radius lies in the rectangle. *)
From Coq Require Import Reals Lra.
From GJ Require Import Sphere.
Open Scope R_scope.

Lemma sqr_sin_cos x : sin x * sin x + cos x * cos x = 1.
Proof. exact (sin2_cos2 x). Qed.

(* the haversine of a pair is (1 - cos of the central angle) / 2 *)
Lemma hav_cos (lat0 lon0 lat lon : R) :
  hav lat0 lon0 lat lon =
  (1 - (sin (rad lat0) * sin (rad lat) + cos (rad lat0) * cos (rad lat) * cos (rad lon - rad lon0))) / 2.
Proof.
  unfold hav. cbv zeta. rewrite !sin_half_sqr. rewrite cos_minus. lra.
Qed.

Lemma cos_sum_diff (a b : R) : cos (a + b) * cos (a - b) = cos a * cos a - sin b * sin b.
Proof.
  rewrite cos_plus, cos_minus. pose proof (sqr_sin_cos a). pose proof (sqr_sin_cos b). nra.
Qed.

(* a disc of angular radius r about latitude lat that stays clear of the poles: sin r < cos lat, so that the
   tangent longitude asin (sin r / cos lat) is defined *)
Lemma pole_clear (lat r : R) : 0 <= r -> Rabs lat + r < PI / 2 -> 0 < cos lat /\ 0 <= sin r < cos lat.
Proof.
  intros Hr Hpole. pose proof PI_RGT_0. pose proof (Rabs_pos lat).
  destruct (Rabs_def2 lat (PI / 2)) as [B1 B2]; [lra|].
  (* sin r < cos lat : r < PI/2 - |lat| *)
  assert (E : cos lat = sin (PI / 2 - Rabs lat)).
  { rewrite sin_shift. unfold Rabs. destruct (Rcase_abs lat); [rewrite cos_neg|]; reflexivity. }
  split; [apply cos_gt_0; lra|]. split; [apply sin_ge_0; lra|]. rewrite E. apply sin_increasing_1; lra.
Qed.

Lemma tangent_ratio (lat r : R) : 0 <= r -> Rabs lat + r < PI / 2 -> 0 <= sin r / cos lat < 1.
Proof.
  intros Hr Hpole. destruct (pole_clear lat r Hr Hpole) as (C0 & S0 & Hlt). split.
  - apply Rle_mult_inv_pos; assumption.
  - apply Rmult_lt_reg_r with (cos lat); [exact C0|].
    unfold Rdiv. rewrite Rmult_assoc, Rinv_l, Rmult_1_r, Rmult_1_l by lra. exact Hlt.
Qed.

(* the same clearance seen from the pole *)
Lemma pole_clear_sin (lat r : R) : 0 <= r -> Rabs lat + r < PI / 2 -> 0 < cos r /\ Rabs (sin lat) < cos r.
Proof.
  intros Hr Hpole. destruct (pole_clear lat r Hr Hpole) as (C0 & S0 & Hlt).
  assert (Cr : 0 < cos r) by (pose proof (Rabs_pos lat); apply cos_gt_0; lra).
  split; [exact Cr|]. rewrite <- (Rabs_right (cos r)) by lra. apply Rsqr_lt_abs_0. unfold Rsqr.
  pose proof (sqr_sin_cos lat). pose proof (sqr_sin_cos r). clear - C0 S0 Hlt H H0. nra.
Qed.

(* the steps of the longitude band as facts about numbers: s0, c0 / sp, cp / sl, cl / sr, cr stand for the sines and
   cosines of the centre's latitude, the location's latitude, the longitude difference and the radius, cc for
   c0 * cp; "within the disc" reads cr <= s0 * sp + c0 * cp * cl (the cosine of the central angle) *)

(* a location within the disc is on the centre's side of the sphere *)
Lemma lon_cos_pos (s0 sp cc cl cr : R) :
  Rabs s0 < cr -> -1 <= sp <= 1 -> 0 <= cc -> cr <= s0 * sp + cc * cl -> 0 < cl.
Proof.
  intros Hclear Hsp Hcc HC. destruct (Rlt_or_le 0 cl) as [G|G]; [exact G|]. exfalso.
  assert (cc * cl <= 0) by nra.
  assert (s0 * sp <= Rabs s0) by (unfold Rabs; destruct (Rcase_abs s0); nra).
  lra.
Qed.

Lemma cos_pos_quadrant (L : R) : - PI <= L <= PI -> 0 < cos L -> - (PI / 2) < L < PI / 2.
Proof.
  intros HL CL. pose proof PI_RGT_0. split.
  - destruct (Rlt_or_le (- (PI / 2)) L) as [G|G]; [exact G|]. exfalso.
    assert (cos L <= 0) by (rewrite <- cos_neg; apply cos_le_0; lra). lra.
  - destruct (Rlt_or_le L (PI / 2)) as [G|G]; [exact G|]. exfalso.
    assert (cos L <= 0) by (apply cos_le_0; lra). lra.
Qed.

(* Cauchy-Schwarz on (s0, c0 cl) . (sp, cp) bounds C^2 by s0^2 + c0^2 cl^2, whence c0^2 sl^2 <= sr^2 *)
Lemma lon_sin_bound (s0 c0 sp cp sl cl sr cr : R) :
  s0 * s0 + c0 * c0 = 1 -> sp * sp + cp * cp = 1 -> sl * sl + cl * cl = 1 -> sr * sr + cr * cr = 1 ->
  0 <= cr <= s0 * sp + c0 * cp * cl -> c0 * c0 * (sl * sl) <= sr * sr.
Proof.
  intros E0 Ep El Er [Hcr HC]. set (C := s0 * sp + c0 * cp * cl) in *.
  assert (CS : C * C <= s0 * s0 + c0 * c0 * (cl * cl)).
  { pose proof (Rle_0_sqr (s0 * cp - c0 * cl * sp)) as Hz. unfold Rsqr in Hz.
    assert (Id : C * C + (s0 * cp - c0 * cl * sp) * (s0 * cp - c0 * cl * sp)
                 = (s0 * s0 + c0 * c0 * (cl * cl)) * (sp * sp + cp * cp)) by (unfold C; ring).
    rewrite Ep, Rmult_1_r in Id. lra. }
  assert (cr * cr <= C * C) by (apply Rmult_le_compat; assumption).
  replace (c0 * c0 * (sl * sl)) with (c0 * c0 - c0 * c0 * (cl * cl)) by (rewrite <- (Rmult_1_r (c0 * c0)) at 1; rewrite <- El; ring).
  lra.
Qed.

(* a location within angular distance r of the centre, for a disc that stays clear of the poles,
   differs in longitude by at most the tangent longitude *)
Theorem disc_longitude_band (lat0 lon0 lat lon r : R) :
  lat_ok lat0 -> lat_ok lat -> 0 <= r -> Rabs (rad lat0) + r < PI / 2 ->
  - PI <= rad lon - rad lon0 <= PI ->
  hav lat0 lon0 lat lon <= sin (r / 2) * sin (r / 2) ->
  Rabs (rad lon - rad lon0) <= asin (sin r / cos (rad lat0)).
Proof.
  intros H0 H1 Hr Hpole HL Hh.
  destruct (pole_clear _ _ Hr Hpole) as (C0 & _). destruct (tangent_ratio _ _ Hr Hpole) as [Hx0 Hx1].
  destruct (pole_clear_sin _ _ Hr Hpole) as [Cr Hclear].
  set (p0 := rad lat0) in *. set (p := rad lat) in *. set (L := rad lon - rad lon0) in *.
  (* the central angle is at most r *)
  rewrite hav_cos, sin_half_sqr in Hh. fold p0 p L in Hh.
  assert (HC : cos r <= sin p0 * sin p + cos p0 * cos p * cos L) by lra.
  assert (CL : 0 < cos L).
  { apply (lon_cos_pos (sin p0) (sin p) (cos p0 * cos p) (cos L) (cos r) Hclear (SIN_bound p)); [|exact HC].
    apply Rmult_le_pos; [lra|apply cos_lat_nonneg; exact H1]. }
  pose proof (cos_pos_quadrant L HL CL) as BL.
  pose proof (lon_sin_bound _ _ _ _ _ _ _ _ (sqr_sin_cos p0) (sqr_sin_cos p) (sqr_sin_cos L) (sqr_sin_cos r)
                (conj (Rlt_le _ _ Cr) HC)) as Hsq.
  (* sin^2 L <= (sin r / cos p0)^2, and sin is increasing *)
  apply sin_sqr_le; [lra|split; [apply asin_nonneg; lra|apply asin_bound]|].
  rewrite sin_asin by lra.
  apply Rmult_le_reg_r with (cos p0 * cos p0); [apply Rmult_lt_0_compat; exact C0|].
  replace (sin r / cos p0 * (sin r / cos p0) * (cos p0 * cos p0)) with (sin r * sin r) by (field; lra). lra.
Qed.

(* the angle RectFromCenter computes is that tangent longitude *)
Theorem rect_lon_is_tangent_longitude (lat r : R) :
  0 <= r -> Rabs lat + r < PI / 2 ->
  atan (sin r / sqrt (cos (lat + r) * cos (lat - r))) = asin (sin r / cos lat).
Proof.
  intros Hr Hpole.
  destruct (pole_clear _ _ Hr Hpole) as (C0 & Sr & Hlt). destruct (tangent_ratio _ _ Hr Hpole) as [Hx0 Hx1].
  set (x := sin r / cos lat) in *.
  rewrite (asin_atan x) by lra. f_equal.
  rewrite cos_sum_diff.
  assert (P : 0 < cos lat * cos lat - sin r * sin r) by (clear - C0 Sr Hlt; nra).
  assert (E : 1 - x² = (cos lat * cos lat - sin r * sin r) / (cos lat * cos lat)).
  { unfold x, Rsqr. field. lra. }
  rewrite E. rewrite sqrt_div_alt by nra. rewrite (sqrt_square (cos lat)) by lra.
  unfold x. field. split; [lra|]. apply Rgt_not_eq. apply sqrt_lt_R0. exact P.
Qed.

Print Assumptions disc_longitude_band.
Print Assumptions rect_lon_is_tangent_longitude.
