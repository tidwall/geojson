(* MirrorY.v — property C12: reflection in the horizontal axis (y -> -y) and transposition
   (x <-> y).  Both move the ray of the point-in-ring test (the half-open rule flips, or the ray
   turns upwards); by the general crossing-parity theorem (Crossing.v) every non-horizontal
   direction counts the same parity as the ray to the right, so membership in a ring is invariant
   under any orientation-reversing map that turns some non-horizontal direction round
   (in_ringb_reflection); the two maps are instances.  With Mirror.v (x -> -x) this covers the
   eight symmetries of the square. *)
From GJ Require Import Base KernelSpec SeriesSpec RingSpec KernelProofs SeriesProofs PipProofs Jordan
  Crossing.
Open Scope Z_scope.

(* a point beyond every vertex in one of the four axis directions is outside the box of the ring *)
Lemma beyond_outside (ps : list pt) (X : pt) :
  (forall q, In q ps -> px X < px q) \/ (forall q, In q ps -> px q < px X) \/
  (forall q, In q ps -> py X < py q) \/ (forall q, In q ps -> py q < py X) ->
  on_boundaryb (ring_edges ps) X = false /\ parityb (ring_edges ps) X = false.
Proof.
  intros H. destruct ps as [|q0 l]; [split; reflexivity|].
  apply outside_bbox_no_hit, not_true_is_false. rewrite rect_contains_point_inbox. unfold inbox.
  destruct (bbox_spec_attained (q0 :: l)) as (p1 & p2 & p3 & p4 & I1 & I2 & I3 & I4 & E1 & E2 & E3 & E4); [discriminate|]. cbv zeta in *.
  destruct H as [H|[H|[H|H]]]; [pose proof (H p1 I1)|pose proof (H p3 I3)|pose proof (H p2 I2)|pose proof (H p4 I4)]; lia.
Qed.

(* a bound on the distance from p to every vertex *)
Definition spread (ps : list pt) (p : pt) : Z :=
  fold_right (fun q acc => acc + Z.abs (px q - px p) + Z.abs (py q - py p)) 1 ps.

Lemma spread_spec ps p : 0 < spread ps p /\
  forall q, In q ps -> Z.abs (px q - px p) < spread ps p /\ Z.abs (py q - py p) < spread ps p.
Proof.
  unfold spread. induction ps as [|x l IH]; cbn [fold_right].
  - split; [lia|intros q []].
  - destruct IH as [I1 I2]. split; [lia|]. intros q [<-|Hq]; [lia|]. destruct (I2 q Hq). lia.
Qed.

Lemma far_point_outside (ps : list pt) (p : pt) (nx ny t : Z) : (nx <> 0 \/ ny <> 0) -> spread ps p <= t ->
  let H := (px p + t * nx, py p + t * ny) in
  on_boundaryb (ring_edges ps) H = false /\ parityb (ring_edges ps) H = false.
Proof.
  intros Hn Ht H. destruct (spread_spec ps p) as [Sp Sq].
  destruct (Z.eq_dec ny 0) as [Ey|Ny].
  - assert (Nx : nx <> 0) by tauto. apply beyond_outside.
    destruct (Z.lt_trichotomy nx 0) as [L|[L|L]]; [left|lia|right; left]; intros q Hq; destruct (Sq q Hq) as [Qx _];
      unfold H, px; cbn [fst]; unfold px in Qx;
      [assert (t * nx <= - t) by nia|assert (t <= t * nx) by nia]; lia.
  - apply beyond_outside. right; right.
    destruct (Z.lt_trichotomy ny 0) as [L|[L|L]]; [left|lia|right]; intros q Hq; destruct (Sq q Hq) as [_ Qy];
      unfold H, py; cbn [snd]; unfold py in Qy;
      [assert (t * ny <= - t) by nia|assert (t <= t * ny) by nia]; lia.
Qed.

Lemma soppb_neg_swap x y : soppb (- x) (- y) = soppb y x.
Proof. unfold soppb. apply bool_eq_iff. rewrite !orb_true_iff, !andb_true_iff, !Z.ltb_lt. lia. Qed.

(* maps that preserve equality of points: the edges of the image ring; membership under a reflection *)
Section Tau.
Variable tau : pt -> pt.
Hypothesis tau_eqb : forall p q, pt_eqb (tau p) (tau q) = pt_eqb p q.
Definition taus (s : seg) : seg := (tau (fst s), tau (snd s)).

Lemma path_segs_tau ps : path_segs (map tau ps) = map taus (path_segs ps).
Proof. exact (path_segs_map tau ps). Qed.

Lemma ring_edges_tau ps : ring_edges (map tau ps) = map taus (ring_edges ps).
Proof. exact (ring_edges_map tau tau_eqb ps). Qed.

Hypothesis tau_on : forall s p, on_segb (taus s) (tau p) = on_segb s p.

Lemma on_boundaryb_tau E p : on_boundaryb (map taus E) (tau p) = on_boundaryb E p.
Proof. exact (on_boundaryb_map tau E p (fun s => tau_on s p)). Qed.

(* strict membership follows membership, the boundary being preserved *)
Lemma strictly_in_tau ps p :
  in_ringb (ring_edges (map tau ps)) (tau p) = in_ringb (ring_edges ps) p ->
  strictly_in_ringb (ring_edges (map tau ps)) (tau p) = strictly_in_ringb (ring_edges ps) p.
Proof. intros H. rewrite !strictly_in_ringb_alt, H, ring_edges_tau, on_boundaryb_tau. reflexivity. Qed.

(* tau a reflection (it flips orientation) that turns some non-horizontal direction v round.
   Membership is then preserved: by Crossing.crossing_parity the parity at p is the number of
   edges crossed on the way from a far point G = p + t v up to p, and at tau p the number crossed
   from tau p up to tau G = tau p - t v; the two counts agree edge by edge. *)
Variables vx vy : Z.
Hypothesis tau_cross : forall a b p, cross (tau a) (tau b) (tau p) = - cross a b p.
Hypothesis tau_shift : forall p t, tau (px p + t * vx, py p + t * vy) = (px (tau p) + t * - vx, py (tau p) + t * - vy).
Hypothesis v_down : vy < 0.

Theorem in_ringb_reflection (ps : list pt) (p : pt) :
  in_ringb (ring_edges (map tau ps)) (tau p) = in_ringb (ring_edges ps) p.
Proof.
  rewrite ring_edges_tau. unfold in_ringb. rewrite on_boundaryb_tau.
  destruct (on_boundaryb (ring_edges ps) p) eqn:Hb; [reflexivity|]. cbn [orb].
  destruct (spread_spec ps p) as [S1 _]. destruct (spread_spec (map tau ps) (tau p)) as [S2 _].
  set (t := spread ps p + spread (map tau ps) (tau p)). set (G := (px p + t * vx, py p + t * vy)).
  assert (Hv : vx <> 0 \/ vy <> 0) by lia. assert (Hv' : - vx <> 0 \/ - vy <> 0) by lia.
  assert (T1 : spread ps p <= t) by (unfold t; lia).
  assert (T2 : spread (map tau ps) (tau p) <= t) by (unfold t; lia).
  assert (Hdn : t * vy < 0) by (apply Z.mul_pos_neg; [unfold t|]; lia).
  destruct (far_point_outside ps p vx vy t Hv T1) as [BG PG]. fold G in BG, PG.
  destruct (far_point_outside (map tau ps) (tau p) (- vx) (- vy) t Hv' T2) as [BG' PG'].
  rewrite <- (tau_shift p t) in BG', PG'. fold G in BG', PG'.
  rewrite ring_edges_tau in BG', PG'.
  pose proof (crossing_parity ps G p) as C1. rewrite PG, xorb_false_l in C1.
  rewrite C1 by (try assumption; unfold G, py; cbn [snd]; lia).
  pose proof (crossing_parity (map tau ps) (tau p) (tau G)) as C2.
  rewrite ring_edges_tau, PG', xorb_false_r in C2. rewrite C2.
  - rewrite xfold_map. apply xfold_ext. intros [a b] _. unfold Xc, taus. cbn [fst snd].
    rewrite !tau_cross, soppb_neg_swap, !(cross_swap G p). f_equal. f_equal; f_equal; lia.
  - unfold G. rewrite tau_shift. unfold py. cbn [snd]. lia.
  - rewrite on_boundaryb_tau. exact Hb.
  - exact BG'.
Qed.
End Tau.

(* y -> -y: the direction (0, -1) is turned round *)

Definition my (p : pt) : pt := (px p, - py p).
Definition mys := taus my.

Lemma my_my p : my (my p) = p.
Proof. destruct p as [x y]. unfold my, px, py. cbn [fst snd]. f_equal. lia. Qed.

Lemma cross_my a b p : cross (my a) (my b) (my p) = - cross a b p.
Proof. unfold cross, my, px, py. cbn [fst snd]. ring. Qed.

Lemma on_segb_my s p : on_segb (mys s) (my p) = on_segb s p.
Proof.
  destruct s as [a b]. apply bool_eq_iff. rewrite !on_segb_iff. unfold on_seg, mys, taus. cbn [fst snd].
  rewrite cross_my. unfold my, px, py. cbn [fst snd]. lia.
Qed.

Theorem in_ringb_my (ps : list pt) (p : pt) :
  in_ringb (ring_edges (map my ps)) (my p) = in_ringb (ring_edges ps) p.
Proof.
  apply (in_ringb_reflection my (pt_eqb_invol my my_my) on_segb_my 0 (-1) cross_my); [|lia].
  intros [x y] t. unfold my, px, py. cbn [fst snd]. f_equal; ring.
Qed.

Theorem strictly_in_ringb_my (ps : list pt) (p : pt) :
  strictly_in_ringb (ring_edges (map my ps)) (my p) = strictly_in_ringb (ring_edges ps) p.
Proof. apply (strictly_in_tau my (pt_eqb_invol my my_my) on_segb_my), in_ringb_my. Qed.

(* x <-> y: the anti-diagonal direction (1, -1) is turned round *)

Definition tr (p : pt) : pt := (py p, px p).
Definition trs := taus tr.

Lemma tr_tr p : tr (tr p) = p.
Proof. destruct p as [x y]. reflexivity. Qed.

Lemma cross_tr a b p : cross (tr a) (tr b) (tr p) = - cross a b p.
Proof. unfold cross, tr, px, py. cbn [fst snd]. ring. Qed.

Lemma on_segb_tr s p : on_segb (trs s) (tr p) = on_segb s p.
Proof.
  destruct s as [a b]. apply bool_eq_iff. rewrite !on_segb_iff. unfold on_seg, trs, taus. cbn [fst snd].
  rewrite cross_tr. unfold tr, px, py. cbn [fst snd]. lia.
Qed.

Theorem in_ringb_tr (ps : list pt) (p : pt) :
  in_ringb (ring_edges (map tr ps)) (tr p) = in_ringb (ring_edges ps) p.
Proof.
  apply (in_ringb_reflection tr (pt_eqb_invol tr tr_tr) on_segb_tr 1 (-1) cross_tr); [|lia].
  intros [x y] t. unfold tr, px, py. cbn [fst snd]. f_equal; ring.
Qed.

Theorem strictly_in_ringb_tr (ps : list pt) (p : pt) :
  strictly_in_ringb (ring_edges (map tr ps)) (tr p) = strictly_in_ringb (ring_edges ps) p.
Proof. apply (strictly_in_tau tr (pt_eqb_invol tr tr_tr) on_segb_tr), in_ringb_tr. Qed.

Print Assumptions in_ringb_my.
Print Assumptions in_ringb_tr.
