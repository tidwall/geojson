(* IndexSeriesProofs.v — property C04 at the level of a series: for every index
   kind, baseSeries.Search (model: IndexExec.series_search) reports a
   permutation of the brute-force answer — exactly the segments whose rectangle
   meets the query — and searching the compressed quadtree bytes gives the same.
   The model rebuilds the index from the series at every search, so the
   statement for a moved series (series_search_moved_exact) is an instance. *)
From Coq Require Import Sorting.Permutation FSets.FMapPositive.
From GJ Require Import Base Series SeriesSpec SeriesProofs Index IndexExec
  QTreeProofs RTreeProofs CodecQProofs PipProofs PairProofs.
Open Scope Z_scope.

(* the step of the fold in [mk_rect_map] *)
Definition add_step (st : rect_map * positive) (r : rect) : rect_map * positive :=
  let '(m, i) := st in (PositiveMap.add i r m, Pos.succ i).

(* after the rectangles rs the table holds the i-th of them under key i+1 and
   the next key is length rs + 1 *)
Lemma mk_rect_map_spec (rs : list rect) :
  let st := fold_left add_step rs (PositiveMap.empty rect, 1%positive) in
  snd st = Pos.of_succ_nat (length rs) /\
  forall i r, nth_error rs i = Some r -> PositiveMap.find (Pos.of_succ_nat i) (fst st) = Some r.
Proof.
  induction rs as [|x rs IH] using rev_ind; [split; [reflexivity|intros [|i] r H; discriminate H]|].
  cbv zeta in *. rewrite fold_left_app. cbn [fold_left].
  destruct (fold_left add_step rs (PositiveMap.empty rect, 1%positive)) as [m k].
  cbn [fst snd add_step] in *. destruct IH as [-> IH].
  rewrite app_length, Nat.add_1_r. split; [reflexivity|]. intros i r H.
  destruct (Nat.lt_ge_cases i (length rs)) as [L|L].
  - rewrite nth_error_app1 in H by exact L.
    rewrite PositiveMap.gso; [exact (IH i r H)|]. intros E. apply SuccNat2Pos.inj in E. lia.
  - rewrite nth_error_app2 in H by exact L.
    destruct (i - length rs)%nat as [|j] eqn:Ej; [|destruct j; discriminate H].
    injection H as ->. replace i with (length rs) by lia. apply PositiveMap.gss.
Qed.

Lemma rect_of_list_nth (rs : list rect) (i : nat) (r : rect) :
  nth_error rs i = Some r -> rect_of_list rs (Z.of_nat i) = r.
Proof.
  intros H. unfold rect_of_list.
  replace (Z.to_pos (Z.of_nat i + 1)) with (Pos.of_succ_nat i) by lia.
  change (mk_rect_map rs) with (fst (fold_left add_step rs (PositiveMap.empty rect, 1%positive))).
  rewrite (proj2 (mk_rect_map_spec rs) i r H). reflexivity.
Qed.

(* brute force, in the form the tree theorems speak of *)
Lemma brute_as_filter (rs : list rect) (q : rect) :
  brute rs q = filter (fun it => rect_intersects_rect (rect_of_list rs it) q) (map Z.of_nat (seq 0 (length rs))).
Proof.
  unfold brute.
  assert (G : forall (l : list rect) (s : nat),
            (forall j r, nth_error l j = Some r -> rect_of_list rs (Z.of_nat (s + j)) = r) ->
            map (fun ri : rect * nat => Z.of_nat (snd ri))
                (filter (fun ri => rect_intersects_rect (fst ri) q) (combine l (seq s (length l))))
            = filter (fun it => rect_intersects_rect (rect_of_list rs it) q) (map Z.of_nat (seq s (length l)))).
  { induction l as [|r l IH]; intros s H; [reflexivity|].
    cbn [length seq combine filter map fst snd].
    assert (E : rect_of_list rs (Z.of_nat s) = r) by (specialize (H 0%nat r eq_refl); rewrite Nat.add_0_r in H; exact H).
    rewrite E. specialize (IH (S s)).
    assert (H' : forall j r0, nth_error l j = Some r0 -> rect_of_list rs (Z.of_nat (S s + j)) = r0).
    { intros j r0 Hj. specialize (H (S j) r0 Hj). replace (S s + j)%nat with (s + S j)%nat by lia. exact H. }
    destruct (rect_intersects_rect r q); cbn [map snd]; rewrite (IH H'); reflexivity. }
  apply (G rs 0%nat). intros j r Hj. apply rect_of_list_nth. exact Hj.
Qed.

(* without an index: the brute-force scan itself *)
Theorem series_search_noindex_exact (s : series) (q : rect) : series_search 0 s q = search_spec s q.
Proof. reflexivity. Qed.

(* R-tree kind: nothing is asked of the segment rectangles *)
Lemma series_search_rtree_perm (s : series) (q : rect) :
  Permutation (series_search 1 s q) (search_spec s q).
Proof.
  unfold series_search, search_spec. cbn [Z.eqb]. rewrite brute_as_filter.
  pose proof (rbuild_search_any (rect_of_list (seg_rects s)) (length (seg_rects s)) q) as Hx.
  destruct (rroot _) as [r|]; [exact Hx|]. rewrite Hx. apply Permutation_refl.
Qed.

(* quadtree kind: the executable instance works on coordinates scaled by 2^16 *)

Lemma scale_rect_intersects (r q : rect) :
  rect_intersects_rect (scale_rect r) (scale_rect q) = rect_intersects_rect r q.
Proof.
  destruct r as [[a b] [c d]], q as [[e f] [g h]].
  apply Bool.eq_true_iff_eq. rewrite !rir_iff. unfold scale_rect, QS, px, py. cbn [fst snd]. lia.
Qed.

Lemma scale_rect_contains (r q : rect) :
  rect_contains_rect (scale_rect r) (scale_rect q) = rect_contains_rect r q.
Proof.
  destruct r as [[a b] [c d]], q as [[e f] [g h]].
  apply Bool.eq_true_iff_eq. rewrite !rcr_iff. unfold scale_rect, QS, px, py. cbn [fst snd]. lia.
Qed.

Lemma rect_of_list_in (rs : list rect) (i : nat) : (i < length rs)%nat ->
  exists r, nth_error rs i = Some r /\ rect_of_list rs (Z.of_nat i) = r.
Proof.
  intros Hi. destruct (nth_error rs i) as [r|] eqn:E; [|apply nth_error_None in E; lia].
  exists r. split; [reflexivity|apply rect_of_list_nth, E].
Qed.

Lemma rect_of_list_map_scale (rs : list rect) (i : nat) : (i < length rs)%nat ->
  rect_of_list (map scale_rect rs) (Z.of_nat i) = scale_rect (rect_of_list rs (Z.of_nat i)).
Proof.
  intros Hi. destruct (rect_of_list_in rs i Hi) as (r & E & ->).
  apply rect_of_list_nth. rewrite nth_error_map, E. reflexivity.
Qed.

Lemma segments_spec_endpoints (s : series) (a b : pt) :
  In (a, b) (segments_spec s) -> In a (pts s) /\ In b (pts s).
Proof. destruct s as [[|] ps]; [apply ring_edges_endpoints|apply path_segs_endpoints]. Qed.

(* the quadtree is built with the series rectangle as bounds: every segment rectangle lies inside it *)
Lemma seg_rects_in_series_rect (s : series) (r : rect) :
  In r (seg_rects s) -> rect_contains_rect (series_rect s) r = true.
Proof.
  unfold seg_rects. intros H. apply in_map_iff in H. destruct H as ([a b] & <- & Hin).
  destruct (series_empty s) eqn:Hne; [rewrite (empty_series_segments s Hne) in Hin; destruct Hin|].
  destruct (segments_spec_endpoints s a b Hin) as [Ha Hb].
  rewrite (series_rect_spec s Hne). apply seg_rect_in_bbox; assumption.
Qed.

Lemma series_search_qtree_perm (s : series) (q : rect) :
  Permutation (series_search 2 s q) (search_spec s q).
Proof.
  unfold series_search, search_spec. cbn [Z.eqb]. set (rs := seg_rects s).
  rewrite brute_as_filter. fold rs.
  (* the scaled table answers the scaled query as the table answers the query *)
  rewrite <- (filter_ext_in (fun it => rect_intersects_rect (rect_of_list (map scale_rect rs) it) (scale_rect q))).
  - apply qbuild_search_contained. intros i Hi.
    rewrite (rect_of_list_map_scale rs i Hi), scale_rect_contains.
    destruct (rect_of_list_in rs i Hi) as (r & E & ->).
    apply seg_rects_in_series_rect, (nth_error_In _ _ E).
  - intros it Hit. apply in_map_iff in Hit. destruct Hit as (i & <- & Hi). apply in_seq in Hi.
    rewrite rect_of_list_map_scale by lia. apply scale_rect_intersects.
Qed.

(* every index kind: Search = the segments whose rectangle meets the query ... *)
Theorem series_search_exact (kind : Z) (s : series) (q : rect) :
  Permutation (series_search kind s q) (search_spec s q).
Proof.
  destruct (Z.eq_dec kind 1) as [->|H1]; [apply series_search_rtree_perm|].
  destruct (Z.eq_dec kind 2) as [->|H2]; [apply series_search_qtree_perm|].
  unfold series_search. destruct (Z.eqb_spec kind 1); [congruence|]. destruct (Z.eqb_spec kind 2); [congruence|].
  apply Permutation_refl.
Qed.

(* ... each once, since the brute-force scan visits each segment once *)
Lemma series_search_nodup (kind : Z) (s : series) (q : rect) : NoDup (series_search kind s q).
Proof.
  eapply perm_filter_seq_NoDup. rewrite <- brute_as_filter. apply series_search_exact.
Qed.

Theorem series_search_rtree_exact (s : series) (q : rect) :
  Permutation (series_search 1 s q) (search_spec s q) /\ NoDup (series_search 1 s q).
Proof. split; [apply series_search_exact|apply series_search_nodup]. Qed.

Theorem series_search_qtree_exact (s : series) (q : rect) :
  Permutation (series_search 2 s q) (search_spec s q) /\ NoDup (series_search 2 s q).
Proof. split; [apply series_search_exact|apply series_search_nodup]. Qed.

(* Move re-indexes the moved points: the moved series searches as its own brute force *)
Corollary series_search_moved_exact (kind : Z) (s : series) (dx dy : Z) (q : rect) :
  Permutation (series_search kind (series_move s dx dy) q) (search_spec (series_move s dx dy) q).
Proof. apply series_search_exact. Qed.

Print Assumptions series_search_rtree_exact.
Print Assumptions series_search_qtree_exact.
Print Assumptions series_search_exact.

(* searching the compressed quadtree bytes of a series gives its tree search, every read in bounds *)
Theorem series_search_qtree_bytes (sc : Z) (s : series) (q : rect) :
  Z.of_nat (length (seg_rects s)) < 2 ^ 32 ->
  Z.of_nat (length (build_index_bytes sc 2 s)) < 2 ^ 32 ->
  series_search_bytes sc 2 s q = Some (series_search 2 s q).
Proof.
  intros Hn Hlen. unfold series_search_bytes, series_search, build_index_bytes in *. cbn [Z.eqb] in *.
  apply (q_codec_build mid_exact (rect_of_list (map scale_rect (seg_rects s))) (scale_rect (series_rect s))
                       (length (seg_rects s)) (scale_rect q) Hn Hlen).
Qed.

Print Assumptions series_search_qtree_bytes.
