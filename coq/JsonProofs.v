(* JsonProofs.v — the JSON model Json.v through equations and inversions, for the files on C06, C07,
   C08, C17: take_nums, folds that may fail, the step of the position loop, the member scan, what a
   document passes on to its members, and Parse of an object by kind (parse_kind; parse_ind for one
   run, parse_rel for two).  Also the direct theorems of those properties: the append contract, last
   duplicate wins, the rejections at the top level. *)
From GJ Require Import Base JsonConst Json JsonSpec.
Open Scope Z_scope.

Lemma bytes_eqb_eq (a b : list Z) : bytes_eqb a b = true <-> a = b.
Proof.
  revert b. induction a as [|x a IH]; intros [|y b]; cbn [bytes_eqb].
  - split; reflexivity.
  - split; discriminate.
  - split; discriminate.
  - rewrite andb_true_iff, Z.eqb_eq, IH. split; [intros [-> ->]; reflexivity|intros H; inversion H; auto].
Qed.

Lemma bytes_eqb_refl a : bytes_eqb a a = true.
Proof. apply bytes_eqb_eq. reflexivity. Qed.

Lemma forallb_eq {A} (f g : A -> bool) (l : list A) : (forall x, f x = g x) -> forallb f l = forallb g l.
Proof. intros H. induction l as [|x l IH]; [reflexivity|]. cbn [forallb]. rewrite H, IH. reflexivity. Qed.

(* the children clause of the predicates on objects, as a Forall *)
Lemma all_Forall {A} (P : A -> Prop) (l : list A) :
  (fix all (l : list A) : Prop := match l with [] => True | c :: r => P c /\ all r end) l <-> Forall P l.
Proof.
  induction l as [|c l IH]; split; intros H; [constructor|exact I| |].
  - destruct H as [Hc Hr]. constructor; [exact Hc|apply IH; exact Hr].
  - inversion H; subst. split; [assumption|apply IH; assumption].
Qed.

Lemma Forall_firstn' {A} (P : A -> Prop) (l : list A) : forall n, Forall P l -> Forall P (firstn n l).
Proof. induction l as [|x l IH]; intros [|n] H; cbn [firstn]; try constructor; inversion H; subst; auto. Qed.
Lemma Forall_skipn' {A} (P : A -> Prop) (l : list A) : forall n, Forall P l -> Forall P (skipn n l).
Proof. induction l as [|x l IH]; intros [|n] H; cbn [skipn]; try assumption. inversion H; subst; auto. Qed.

Lemma flat_map_map {A B C} (f : B -> list C) (g : A -> B) (l : list A) :
  flat_map f (map g l) = flat_map (fun x => f (g x)) l.
Proof. induction l as [|x l IH]; [reflexivity|]. cbn [map flat_map]. rewrite IH. reflexivity. Qed.

Lemma flat_map_ext_in {A B} (f g : A -> list B) (l : list A) : (forall x, In x l -> f x = g x) -> flat_map f l = flat_map g l.
Proof.
  induction l as [|x l IH]; intros H; [reflexivity|]. cbn [flat_map]. rewrite (H x (or_introl eq_refl)), IH; [reflexivity|].
  intros y Hy. apply H. right. exact Hy.
Qed.

Lemma fnum_eqb_eq (a b : fnum) : fnum_eqb a b = true -> a = b.
Proof. destruct a, b; cbn; try discriminate. intros H. apply Z.eqb_eq in H. subst. reflexivity. Qed.

(* induction over objects: the children of a collection come with the hypothesis, as a Forall
   (the principle Coq derives has no hypothesis for the list) *)
Section Ind.
Variable P : gobj -> Prop.
Hypothesis H1 : forall p ex, P (JPoint p ex).
Hypothesis H2 : forall p, P (JSimple p).
Hypothesis H3 : forall a b, P (JRect a b).
Hypothesis H4 : forall ps ex, P (JLine ps ex).
Hypothesis H5 : forall rs ex, P (JPoly rs ex).
Hypothesis H6 : forall b ex, P b -> P (JFeature b ex).
Hypothesis H7 : forall k cs ex, Forall P cs -> P (JColl k cs ex).
Hypothesis H8 : forall c m, P (JCircle c m).
Fixpoint gobj_ind' (o : gobj) : P o :=
  match o with
  | JPoint p ex => H1 p ex
  | JSimple p => H2 p
  | JRect a b => H3 a b
  | JLine ps ex => H4 ps ex
  | JPoly rs ex => H5 rs ex
  | JFeature b ex => H6 b ex (gobj_ind' b)
  | JColl k cs ex => H7 k cs ex ((fix go (l : list gobj) : Forall P l :=
                                   match l with [] => Forall_nil P | c :: r => Forall_cons c (gobj_ind' c) (go r) end) cs)
  | JCircle c m => H8 c m
  end.
End Ind.

(* validity reads the options through the two limits only *)
Lemma g_valid_ext (o o' : popts) (g : gobj) : l180 o = l180 o' -> l90 o = l90 o' -> g_valid o g = g_valid o' g.
Proof.
  intros E1 E2. assert (Hp : forall p, fpt_valid o p = fpt_valid o' p) by (intros p; unfold fpt_valid; rewrite E1, E2; reflexivity).
  induction g as [p ex|p|mn mx|ps ex|rings ex|base ex IH|k cs ex IH|c m] using gobj_ind'; cbn [g_valid]; rewrite ?Hp; try reflexivity.
  - apply forallb_eq. exact Hp.
  - apply forallb_eq. intros r. apply forallb_eq. exact Hp.
  - exact IH.
  - induction IH as [|x l Hx Hl IHl]; [reflexivity|]. cbn [forallb]. rewrite Hx, IHl. reflexivity.
Qed.

Section EmitFacts.
Variable fmt : Z -> list Z.

(* AppendJSON(prefix) = prefix followed by exactly the bytes of JSON(); the prefix is untouched *)
Theorem append_contract (dst : list Z) (o : gobj) :
  append_json fmt dst o = dst ++ emit fmt o /\
  firstn (length dst) (append_json fmt dst o) = dst /\
  skipn (length dst) (append_json fmt dst o) = append_json fmt [] o.
Proof.
  unfold append_json. split; [reflexivity|]. split.
  - rewrite firstn_app, Nat.sub_diag, firstn_all. cbn [firstn]. apply app_nil_r.
  - rewrite skipn_app, Nat.sub_diag, skipn_all. reflexivity.
Qed.

(* a non-finite ordinate is written as null, a finite one through the number formatter: no bare NaN / Inf token *)
Theorem emit_float_cases (f : fnum) :
  match f with
  | FV k => emit_float fmt f = fmt k
  | FNull => emit_float fmt f = s_null
  | FBad => emit_float fmt f = bad_token
  end.
Proof. destruct f; reflexivity. Qed.

(* representation options change only the Go type: a SimplePoint writes what the Point writes,
   a Rect what its five-point Polygon writes *)
Theorem emit_simple_as_point (p : fpt) : emit fmt (JSimple p) = emit fmt (JPoint p None).
Proof. cbn [emit emit_extra]. reflexivity. Qed.

Theorem emit_rect_as_polygon (mn mx : fpt) :
  emit fmt (JRect mn mx) = emit fmt (JPoly [fpt_rect_points mn mx] None).
Proof.
  cbn [emit rings_empty fpt_rect_points length Nat.ltb Nat.leb emit_rings].
  destruct (emit_series fmt _ None 0) as [t n]. cbn [fst join_comma]. reflexivity.
Qed.

End EmitFacts.

(* C05 / C07: Parse returns an object and no error, or no object and an error *)
Theorem parse_total (fuel : nat) (o : popts) (one : Z) (v : jv) :
  (exists g, parse fuel o one v = POk g) \/ (exists c, parse fuel o one v = PErr c).
Proof. destruct (parse fuel o one v) as [g|c]; [left; exists g|right; exists c]; reflexivity. Qed.

(* the (at most n) numbers of a position: numbers, and null where allowed *)
Definition numv (allow : bool) (v : jv) : bool := match v with JNum _ _ => true | JNull => allow | _ => false end.

Lemma take_nums_eq (allow : bool) (n : nat) : forall l,
  take_nums allow n l = if forallb (numv allow) (firstn n l) then Some (map num_of (firstn n l)) else None.
Proof.
  induction n as [|n IH]; intros l; [reflexivity|]. destruct l as [|v l]; [reflexivity|].
  cbn [take_nums firstn forallb map]. rewrite IH. destruct v; try reflexivity; cbn [numv andb num_of].
  - destruct allow; [|reflexivity]. destruct (forallb (numv true) (firstn n l)); reflexivity.
  - destruct (forallb (numv allow) (firstn n l)); reflexivity.
Qed.

Lemma take_nums_some (allow : bool) (n : nat) (l : list jv) (t : list fnum) :
  take_nums allow n l = Some t -> t = map num_of (firstn n l) /\ Forall (fun v => numv allow v = true) (firstn n l).
Proof.
  rewrite take_nums_eq. destruct (forallb (numv allow) (firstn n l)) eqn:E; [|discriminate]. intros H. inversion H.
  split; [reflexivity|]. apply Forall_forall. apply forallb_forall. exact E.
Qed.

Lemma take_nums_isnum (allow : bool) (n : nat) (l : list jv) :
  forallb is_num l = true -> take_nums allow n l = Some (map num_of (firstn n l)).
Proof.
  intros H. rewrite take_nums_eq. replace (forallb (numv allow) (firstn n l)) with true; [reflexivity|]. symmetry.
  apply forallb_forall. apply Forall_forall. apply Forall_firstn'. apply Forall_forall. intros x Hx.
  rewrite forallb_forall in H. specialize (H x Hx). destruct x; try discriminate. reflexivity.
Qed.

Lemma take_nums_length (allow : bool) (n : nat) (l : list jv) (t : list fnum) :
  take_nums allow n l = Some t -> length t = Nat.min n (length l).
Proof. intros H. destruct (take_nums_some _ _ _ _ H) as [-> _]. rewrite map_length. apply firstn_length. Qed.

Lemma map_until_ok {A B} (f : A -> res B) (l : list A) (out : list B) :
  map_until f l = ROk out <-> Forall2 (fun x y => f x = ROk y) l out.
Proof.
  split.
  - revert out. induction l as [|x l IH]; intros out H; cbn [map_until] in H; [inversion H; constructor|].
    destruct (f x) as [b|c] eqn:E; [|discriminate]. destruct (map_until f l) as [t|c]; [|discriminate].
    inversion H; subst. constructor; [exact E|apply IH; reflexivity].
  - induction 1 as [|x y l out Hxy _ IH]; cbn [map_until]; [reflexivity|]. rewrite Hxy, IH. reflexivity.
Qed.

Lemma map_until_ok_all {A B} (f : A -> res B) (l : list A) (out : list B) :
  map_until f l = ROk out -> forall x, In x l -> exists y, f x = ROk y.
Proof.
  intros H x Hin. apply map_until_ok in H. induction H as [|a b l out Hab _ IH]; [contradiction|].
  destruct Hin as [->|Hin]; [exists b; exact Hab|exact (IH Hin)].
Qed.

Lemma map_until_inv {A B} (f : A -> res B) (P : A -> Prop) (Q : B -> Prop) (l : list A) (out : list B) :
  Forall P l -> (forall x y, P x -> f x = ROk y -> Q y) -> map_until f l = ROk out -> Forall Q out.
Proof.
  intros Hl Hf H. apply map_until_ok in H. induction H as [|x y l out Hxy _ IH]; constructor; inversion Hl; subst; eauto.
Qed.

(* folds whose state may have failed: a failure stays, and what every
   successful step preserves holds at the end of a successful fold *)

Section FoldRes.
Context {S A : Type} (step : res S -> A -> res S).
Hypothesis step_err : forall c a, step (RErr c) a = RErr c.

Lemma fold_res_err (l : list A) (c : Z) : fold_left step l (RErr c) = RErr c.
Proof. induction l as [|a l IH]; [reflexivity|]. cbn [fold_left]. rewrite step_err. exact IH. Qed.

(* [I done s]: s is the state after the elements [done] *)
Lemma fold_res_inv (I : list A -> S -> Prop) (P : A -> Prop) :
  (forall done s a s', I done s -> P a -> step (ROk s) a = ROk s' -> I (done ++ [a]) s') ->
  forall l done s s', Forall P l -> I done s -> fold_left step l (ROk s) = ROk s' -> I (done ++ l) s'.
Proof.
  intros Hstep. induction l as [|a l IH]; intros done s s' Hl Hi H; cbn [fold_left] in H.
  - inversion H; subst. rewrite app_nil_r. exact Hi.
  - inversion Hl as [|? ? Ha Hl']; subst. destruct (step (ROk s) a) as [s1|c] eqn:E; [|rewrite fold_res_err in H; discriminate].
    replace (done ++ a :: l) with ((done ++ [a]) ++ l) by (rewrite <- app_assoc; reflexivity).
    exact (IH _ s1 s' Hl' (Hstep done s a s1 Hi Ha E) H).
Qed.

Lemma fold_res_all (Inv : list A -> S -> Prop) :
  (forall done s a s', Inv done s -> step (ROk s) a = ROk s' -> Inv (done ++ [a]) s') ->
  forall l s s', Inv [] s -> fold_left step l (ROk s) = ROk s' -> Inv l s'.
Proof.
  intros Hstep l s s' Hi H.
  apply (fold_res_inv Inv (fun _ => True) (fun d s1 a s2 H1 _ => Hstep d s1 a s2 H1) l [] s s'); [|exact Hi|exact H].
  apply Forall_forall. intros x _. exact I.
Qed.

Lemma fold_res_fails (l : list A) (a : A) : In a l -> (forall s, exists c, step (ROk s) a = RErr c) ->
  forall st, exists c, fold_left step l st = RErr c.
Proof.
  intros Hin Ha. induction l as [|b l IH]; [contradiction|]. intros st. cbn [fold_left].
  destruct st as [s|c0]; [|exists c0; rewrite step_err; apply fold_res_err].
  destruct Hin as [->|Hin]; [|exact (IH Hin _)]. destruct (Ha s) as [c ->]. exists c. apply fold_res_err.
Qed.
End FoldRes.

Lemma pos_fold_err (mixed arr : bool) (l : list jv) (c : Z) : fold_left (pos_step mixed arr) l (RErr c) = RErr c.
Proof. apply fold_res_err. reflexivity. Qed.

Lemma ring_fold_err (l : list jv) (c : Z) : fold_left ring_step l (RErr c) = RErr c.
Proof. apply fold_res_err. reflexivity. Qed.

(* the coordinate parsers of LineString and Polygon are their loops: on an array, and whenever they succeed *)
Lemma line_coords_arr (top : bool) (l : list jv) :
  parse_line_coords top (Some (JArr l)) =
  match fold_left (pos_step MIXED_OK true) l (ROk ([], None, true)) with
  | RErr c => RErr c
  | ROk (pts_rev, ex, _) => ROk (rev pts_rev, ex)
  end.
Proof. unfold parse_line_coords. cbn [is_array negb elems]. rewrite andb_false_r. reflexivity. Qed.

Lemma poly_coords_arr (top : bool) (l : list jv) :
  parse_poly_coords top (Some (JArr l)) =
  match fold_left ring_step l (ROk ([], None, true)) with
  | RErr c => RErr c
  | ROk (rings_rev, ex, _) => ROk (rev rings_rev, ex)
  end.
Proof. unfold parse_poly_coords. cbn [is_array negb elems]. rewrite andb_false_r. reflexivity. Qed.

Lemma point_coords_arr (top : bool) (l : list jv) :
  parse_point_coords top (Some (JArr l)) =
  match take_nums true 4 l with
  | Some (x :: y :: r) => ROk ((x, y), extra_of_nums (x :: y :: r))
  | _ => RErr E_CoordsInvalid
  end.
Proof. unfold parse_point_coords. cbn [is_array negb elems]. rewrite andb_false_r. reflexivity. Qed.

Lemma ring_step_arr (rings : list (list fpt)) (ex : option extra) (first : bool) (l : list jv) :
  ring_step (ROk (rings, ex, first)) (JArr l) =
  match fold_left (pos_step MIXED_OK false) l (ROk ([], ex, first)) with
  | RErr c => RErr c
  | ROk (pts_rev, ex', _) => ROk (rev pts_rev :: rings, ex', false)
  end.
Proof. reflexivity. Qed.

Lemma line_coords_ok (top : bool) (v : jv) (ps : list fpt) (ex : option extra) :
  parse_line_coords top (Some v) = ROk (ps, ex) ->
  exists pts f, fold_left (pos_step MIXED_OK true) (elems v) (ROk ([], None, true)) = ROk (pts, ex, f) /\ ps = rev pts.
Proof.
  unfold parse_line_coords. destruct (top && negb (is_array v)); [discriminate|].
  destruct (fold_left _ (elems v) _) as [[[pts e] f]|c]; [|discriminate]. intros H. inversion H; subst. exists pts, f. split; reflexivity.
Qed.

Lemma poly_coords_ok (top : bool) (v : jv) (rings : list (list fpt)) (ex : option extra) :
  parse_poly_coords top (Some v) = ROk (rings, ex) ->
  exists rs f, fold_left ring_step (elems v) (ROk ([], None, true)) = ROk (rs, ex, f) /\ rings = rev rs.
Proof.
  unfold parse_poly_coords. destruct (top && negb (is_array v)); [discriminate|].
  destruct (fold_left _ (elems v) _) as [[[rs e] f]|c]; [|discriminate]. intros H. inversion H; subst. exists rs, f. split; reflexivity.
Qed.

Lemma ring_step_ok (rings : list (list fpt)) (ex : option extra) (first : bool) (ring : jv) s' :
  ring_step (ROk (rings, ex, first)) ring = ROk s' ->
  exists pts ex' f, fold_left (pos_step MIXED_OK false) (elems ring) (ROk ([], ex, first)) = ROk (pts, ex', f) /\
                    s' = (rev pts :: rings, ex', false).
Proof.
  unfold ring_step. destruct (negb (is_array ring)); [discriminate|].
  destruct (fold_left _ (elems ring) _) as [[[pts e] f]|c]; [|discriminate]. intros H. inversion H; subst.
  exists pts, e, f. split; reflexivity.
Qed.

Lemma point_coords_ok (top : bool) (rc : option jv) (p : fpt) (ex : option extra) :
  parse_point_coords top rc = ROk (p, ex) ->
  exists v x y r, rc = Some v /\ take_nums true 4 (elems v) = Some (x :: y :: r) /\ p = (x, y) /\ ex = extra_of_nums (x :: y :: r).
Proof.
  unfold parse_point_coords. destruct rc as [v|]; [|discriminate]. destruct (top && negb (is_array v)); [discriminate|].
  destruct (take_nums true 4 (elems v)) as [nums|] eqn:E; [|discriminate]. destruct nums as [|x [|y r]]; try discriminate.
  intros H. inversion H; subst. exists v, x, y, r. split; [reflexivity|]. split; [exact E|]. split; reflexivity.
Qed.

(* one step of the position loop: the first two of the position's (at most four) numbers are the point; the
   further ones, [more], go to the running extra, or the position is refused (None) *)
Definition next_extra (mixed : bool) (ex : option extra) (first : bool) (more : list fnum) : option (option extra) :=
  match ex with
  | Some e => Some (Some {| dims := dims e; values := values e ++ pad_dims (dims e) more; members := None |})
  | None =>
      match more with
      | [] => Some None
      | _ => if first then Some (Some {| dims := length more; values := more; members := None |})
             else if mixed then Some None else None
      end
  end.

Lemma pos_step_eq (mixed arr : bool) (pts : list fpt) (ex : option extra) (first : bool) (v : jv) :
  pos_step mixed arr (ROk (pts, ex, first)) v =
  if arr && negb (is_array v) then RErr E_CoordsInvalid
  else match take_nums false 4 (elems v) with
       | Some (x :: y :: more) =>
           match next_extra mixed ex first more with
           | Some ex' => ROk ((x, y) :: pts, ex', false)
           | None => RErr E_CoordsInvalid
           end
       | _ => RErr E_CoordsInvalid
       end.
Proof.
  unfold pos_step, parse_position. destruct (arr && negb (is_array v)); [reflexivity|].
  destruct (take_nums false 4 (elems v)) as [[|x [|y more]]|]; try reflexivity. cbn [nth skipn next_extra].
  destruct ex as [e|]; [reflexivity|]. destruct more; [reflexivity|]. destruct first; [reflexivity|]. destruct mixed; reflexivity.
Qed.

Lemma pos_step_ok (mixed arr : bool) (pts : list fpt) (ex : option extra) (first : bool) (v : jv) s' :
  pos_step mixed arr (ROk (pts, ex, first)) v = ROk s' ->
  exists x y more ex', take_nums false 4 (elems v) = Some (x :: y :: more) /\ next_extra mixed ex first more = Some ex' /\
                       s' = ((x, y) :: pts, ex', false).
Proof.
  rewrite pos_step_eq. destruct (arr && negb (is_array v)); [discriminate|].
  destruct (take_nums false 4 (elems v)) as [[|x [|y more]]|]; try discriminate.
  destruct (next_extra mixed ex first more) as [ex'|] eqn:Ex; [|discriminate]. intros H. inversion H; subst.
  exists x, y, more, ex'. split; [reflexivity|]. split; [exact Ex|reflexivity].
Qed.

(* C07: the member scan — the last of duplicate reserved members counts,
   every other member is kept *)

Definition reserved (d : list Z) : bool :=
  bytes_eqb d s_type || bytes_eqb d s_coordinates || bytes_eqb d s_geometries || bytes_eqb d s_geometry || bytes_eqb d s_features.

Lemma last_member_snoc name ms kv :
  last_member name (ms ++ [kv]) = if bytes_eqb (snd (fst kv)) name then Some (snd kv) else last_member name ms.
Proof. unfold last_member. rewrite fold_left_app. reflexivity. Qed.

(* a name that equals one literal differs from the others *)
Ltac names_differ :=
  repeat match goal with
  | H : bytes_eqb ?d ?a = true |- context [bytes_eqb ?d ?b] =>
      let E := fresh in
      assert (E : bytes_eqb d b = false) by (apply bytes_eqb_eq in H; rewrite H; reflexivity);
      rewrite E; clear E
  end.

Lemma scan_keys_eq (ms : list (jkey * jv)) :
  scan_keys ms =
  {| k_type := last_member s_type ms; k_coords := last_member s_coordinates ms; k_geoms := last_member s_geometries ms;
     k_geom := last_member s_geometry ms; k_feats := last_member s_features ms;
     k_foreign := filter (fun kv => negb (reserved (snd (fst kv)))) ms |}.
Proof.
  induction ms as [|kv ms IH] using rev_ind; [reflexivity|].
  unfold scan_keys in *. rewrite fold_left_app, IH. cbn [fold_left]. rewrite !last_member_snoc, filter_app.
  unfold scan_step, reserved. cbn [filter k_type k_coords k_geoms k_geom k_feats k_foreign]. cbv beta. unfold jkey in *.
  destruct (bytes_eqb (snd (fst kv)) s_type) eqn:E1; [names_differ; cbn [orb negb]; rewrite app_nil_r; reflexivity|].
  destruct (bytes_eqb (snd (fst kv)) s_coordinates) eqn:E2; [names_differ; cbn [orb negb]; rewrite app_nil_r; reflexivity|].
  destruct (bytes_eqb (snd (fst kv)) s_geometries) eqn:E3; [names_differ; cbn [orb negb]; rewrite app_nil_r; reflexivity|].
  destruct (bytes_eqb (snd (fst kv)) s_geometry) eqn:E4; [names_differ; cbn [orb negb]; rewrite app_nil_r; reflexivity|].
  destruct (bytes_eqb (snd (fst kv)) s_features); cbn [orb negb]; rewrite ?app_nil_r; reflexivity.
Qed.

(* the scan reads each reserved member as a standard decoder would: the last one *)
Theorem scan_keys_last (ms : list (jkey * jv)) :
  k_type (scan_keys ms) = last_member s_type ms /\
  k_coords (scan_keys ms) = last_member s_coordinates ms /\
  k_geoms (scan_keys ms) = last_member s_geometries ms /\
  k_geom (scan_keys ms) = last_member s_geometry ms /\
  k_feats (scan_keys ms) = last_member s_features ms.
Proof. rewrite scan_keys_eq. repeat split. Qed.

(* properties of a document that pass to its members and items, hence to
   everything the member scan hands to the parsers *)

Record hered (P : jv -> Prop) : Prop := {
  hered_member : forall ms k v, P (JObj ms) -> In (k, v) ms -> P v;
  hered_item : forall l x, P (JArr l) -> In x l -> P x;
  hered_filter : forall f ms, P (JObj ms) -> P (JObj (filter f ms)) }.

Lemma hered_and (P Q : jv -> Prop) : hered P -> hered Q -> hered (fun v => P v /\ Q v).
Proof.
  intros [P1 P2 P3] [Q1 Q2 Q3]. split.
  - intros ms k v [A B] Hin. split; eauto.
  - intros l x [A B] Hin. split; eauto.
  - intros f ms [A B]. split; eauto.
Qed.

Lemma last_member_in (name : list Z) (ms : list (jkey * jv)) (v : jv) :
  last_member name ms = Some v -> exists k, In (k, v) ms.
Proof.
  induction ms as [|[k0 y] ms IH] using rev_ind; [discriminate|]. rewrite last_member_snoc. cbn [fst snd].
  destruct (bytes_eqb (snd k0) name); intros H.
  - inversion H; subst. exists k0. apply in_or_app. right. left. reflexivity.
  - destruct (IH H) as [k Hk]. exists k. apply in_or_app. left. exact Hk.
Qed.

Lemma first_member_in (name : list Z) (ms : list (jkey * jv)) (v : jv) :
  first_member name ms = Some v -> exists k, In (k, v) ms.
Proof.
  unfold first_member.
  match goal with |- context [find ?f ms] => destruct (find f ms) as [kv|] eqn:E end; [|discriminate]. intros H. inversion H; subst.
  apply find_some in E. destruct E as [Hin _]. exists (fst kv). destruct kv; exact Hin.
Qed.

Section Hered.
Variable P : jv -> Prop.
Hypothesis HP : hered P.

Lemma hered_elems (v : jv) : P v -> Forall P (elems v).
Proof.
  destruct v as [| | |r f|r d|l|ms]; intros H; cbn [elems]; try (constructor; [exact H|constructor]); apply Forall_forall; intros x Hx.
  - exact (hered_item P HP l x H Hx).
  - apply in_map_iff in Hx. destruct Hx as ([k y] & <- & Hkv). exact (hered_member P HP ms k y H Hkv).
Qed.

Lemma hered_last (name : list Z) (ms : list (jkey * jv)) (v : jv) : P (JObj ms) -> last_member name ms = Some v -> P v.
Proof. intros Hf H. destruct (last_member_in name ms v H) as [k Hk]. exact (hered_member P HP ms k v Hf Hk). Qed.

Lemma hered_get2 (a b : list Z) (ms : list (jkey * jv)) (v : jv) : P (JObj ms) -> get2 a b ms = Some v -> P v.
Proof.
  intros Hf. unfold get2. destruct (first_member a ms) as [w|] eqn:E; [|discriminate].
  destruct w as [| | |r f|r d|l|ms2]; try discriminate. intros H.
  destruct (first_member_in a ms _ E) as [k Hk]. destruct (first_member_in b ms2 _ H) as [k2 Hk2].
  exact (hered_member P HP ms2 k2 v (hered_member P HP ms k _ Hf Hk) Hk2).
Qed.

(* the scanned members of a document that has the property *)
Definition keys_in (ks : pkeys) : Prop :=
  (forall v, k_coords ks = Some v -> P v) /\ (forall v, k_geoms ks = Some v -> P v) /\
  (forall v, k_geom ks = Some v -> P v) /\ (forall v, k_feats ks = Some v -> P v) /\ P (JObj (k_foreign ks)).

Lemma hered_keys (ms : list (jkey * jv)) : P (JObj ms) -> keys_in (scan_keys ms).
Proof.
  intros H. rewrite scan_keys_eq. unfold keys_in. cbn [k_coords k_geoms k_geom k_feats k_foreign].
  repeat split; try (intros v; apply hered_last; exact H). apply (hered_filter P HP). exact H.
Qed.
End Hered.

(* Parse of an object, piece by piece: the member scan, then the branch
   that the "type" string selects (object.go:205-232) *)

Definition check (o : popts) (g : gobj) (code : Z) : pres :=
  if require_valid o && negb (g_valid o g) then PErr code else POk g.

Lemma check_inv (o : popts) (g : gobj) (code : Z) (r : gobj) :
  check o g code = POk r -> r = g /\ require_valid o && negb (g_valid o g) = false.
Proof. unfold check. destruct (require_valid o && negb (g_valid o g)); [discriminate|]. intros H. inversion H. split; reflexivity. Qed.

Lemma check_pass (o : popts) (g : gobj) (code : Z) : require_valid o && negb (g_valid o g) = false -> check o g code = POk g.
Proof. unfold check. intros ->. reflexivity. Qed.

(* k = the collection kind stored in JColl: 0-2 Multi*, 3 GeometryCollection, 4 FeatureCollection *)
Inductive tkind := TPoint | TLine | TPoly | TFeature | TColl (k : Z).

Definition tkind_of (t : list Z) : option tkind :=
  if bytes_eqb t s_Point then Some TPoint else if bytes_eqb t s_LineString then Some TLine
  else if bytes_eqb t s_Polygon then Some TPoly else if bytes_eqb t s_Feature then Some TFeature
  else if bytes_eqb t s_MultiPoint then Some (TColl 0) else if bytes_eqb t s_MultiLineString then Some (TColl 1)
  else if bytes_eqb t s_MultiPolygon then Some (TColl 2) else if bytes_eqb t s_GeometryCollection then Some (TColl 3)
  else if bytes_eqb t s_FeatureCollection then Some (TColl 4) else None.

Lemma tkind_coll_range (t : list Z) (k : Z) : tkind_of t = Some (TColl k) -> 0 <= k <= 4.
Proof.
  unfold tkind_of.
  repeat match goal with |- context [if ?c then _ else _] => destruct c end; intros H; inversion H; lia.
Qed.

Definition parse_pt (o : popts) (ks : pkeys) : pres :=
  match parse_point_coords true (k_coords ks) with
  | RErr c => PErr c
  | ROk (p, ex) =>
      let ex' := with_members ex (k_foreign ks) in
      match ex' with
      | None => if allow_simple o then check o (JSimple p) E_CoordsInvalid else check o (JPoint p None) E_CoordsInvalid
      | Some _ => check o (JPoint p ex') E_CoordsInvalid
      end
  end.

Definition parse_ln (o : popts) (ks : pkeys) : pres :=
  match parse_line_coords true (k_coords ks) with
  | RErr c => PErr c
  | ROk (ps, ex) =>
      if (length ps <? 2)%nat then PErr E_CoordsInvalid else check o (JLine ps (with_members ex (k_foreign ks))) E_DataInvalid
  end.

Definition parse_pg (o : popts) (ks : pkeys) : pres :=
  match parse_poly_coords true (k_coords ks) with
  | RErr c => PErr c
  | ROk (rings, ex) =>
      match rings with
      | [] => PErr E_CoordsInvalid
      | ext :: holes =>
          if negb (forallb ring_ok rings) then PErr E_CoordsInvalid
          else
            let ex' := with_members ex (k_foreign ks) in
            match ex', holes with
            | None, [] =>
                if allow_rects o && perfect_rect ext
                then check o (JRect (nth 0 ext (FV 0, FV 0)) (nth 2 ext (FV 0, FV 0))) E_CoordsInvalid
                else check o (JPoly rings None) E_CoordsInvalid
            | _, _ => check o (JPoly rings ex') E_CoordsInvalid
            end
      end
  end.

(* Circle recognition looks at a Feature whose geometry is a point and that has foreign members *)
Definition circ_of (o : popts) (one : Z) (base : gobj) (foreign : list (jkey * jv)) : option pres :=
  match base, foreign with
  | JPoint p _, _ :: _ => circle_of o one p foreign
  | JSimple p, _ :: _ => if CIRCLE_SIMPLE_OK then circle_of o one p foreign else None
  | _, _ => None
  end.

Lemma circle_of_ok (o : popts) (one : Z) (p : fpt) (ms : list (jkey * jv)) (r : gobj) :
  circle_of o one p ms = Some (POk r) -> exists m, r = JCircle p m.
Proof.
  unfold circle_of. destruct (disable_circle o); [discriminate|].
  destruct (get2 s_properties s_type ms) as [tv|]; [|discriminate].
  destruct (bytes_eqb (str_of tv) s_Circle); [|discriminate].
  destruct (negb _); [discriminate|].
  destruct (match get2 s_properties s_radius ms with Some (JNum _ f) => ROk f | Some JTrue => ROk (FV one)
            | Some (JStr _ _) => RErr E_Unmodelled | _ => ROk (FV 0) end) as [rad|c]; [|discriminate].
  intros H. inversion H. eexists. reflexivity.
Qed.

(* a recognised Circle comes from a Point geometry, in either representation *)
Lemma circ_of_ok (o : popts) (one : Z) (base : gobj) (foreign : list (jkey * jv)) (r : gobj) :
  circ_of o one base foreign = Some (POk r) ->
  exists p m, circle_of o one p foreign = Some (POk r) /\ r = JCircle p m /\ (base = JSimple p \/ exists ex, base = JPoint p ex).
Proof.
  destruct base as [p ex|p| | | | | |], foreign as [|m0 ms']; try discriminate; cbn [circ_of CIRCLE_SIMPLE_OK];
    intros H; destruct (circle_of_ok o one p _ r H) as [m ->]; exists p, m; (split; [exact H|]); (split; [reflexivity|]);
    [right; exists ex|left]; reflexivity.
Qed.

Lemma circ_of_none (o : popts) (one : Z) (base : gobj) (foreign : list (jkey * jv)) :
  (forall p, circle_of o one p foreign = None) -> circ_of o one base foreign = None.
Proof. intros H. destruct base, foreign; try reflexivity; apply H. Qed.

Definition parse_ft (rec : jv -> pres) (o : popts) (one : Z) (ks : pkeys) : pres :=
  match k_geom ks with
  | None => PErr E_GeometryMissing
  | Some gv =>
      match rec gv with
      | PErr c => PErr c
      | POk base =>
          match circ_of o one base (k_foreign ks) with
          | Some r => r
          | None => POk (JFeature base (with_members None (k_foreign ks)))
          end
      end
  end.

(* the children of the three Multi* kinds are read from their coordinates alone *)
Definition child_point (c : jv) : res gobj :=
  match parse_point_coords false (Some c) with ROk (p, ex) => ROk (JPoint p ex) | RErr e => RErr e end.
Definition child_line (c : jv) : res gobj :=
  match parse_line_coords false (Some c) with
  | ROk (ps, ex) => if (length ps <? 2)%nat then RErr E_CoordsInvalid else ROk (JLine ps ex)
  | RErr e => RErr e
  end.
Definition child_poly (c : jv) : res gobj :=
  match parse_poly_coords false (Some c) with
  | ROk (rings, ex) =>
      match rings with
      | [] => RErr E_CoordsInvalid
      | _ => if forallb ring_ok rings then ROk (JPoly rings ex) else RErr E_CoordsInvalid
      end
  | RErr e => RErr e
  end.
Definition multi_child (k : Z) : jv -> res gobj :=
  if k =? 0 then child_point else if k =? 1 then child_line else child_poly.

Definition coll_src (k : Z) (ks : pkeys) : option jv :=
  if k <? 3 then k_coords ks else if k =? 3 then k_geoms ks else k_feats ks.
Definition coll_missing (k : Z) : Z :=
  if k <? 3 then E_CoordsMissing else if k =? 3 then E_GeometriesMissing else E_FeaturesMissing.
Definition coll_invalid (k : Z) : Z :=
  if k <? 3 then E_CoordsInvalid else if k =? 3 then E_GeometriesInvalid else E_FeaturesInvalid.
Definition coll_child (rec : jv -> pres) (k : Z) : jv -> res gobj :=
  if k <? 3 then multi_child k else fun c => pres_res (rec c).

(* the five collection kinds: only a Multi* object is checked as a whole *)
Definition parse_coll (rec : jv -> pres) (o : popts) (k : Z) (ks : pkeys) : pres :=
  match coll_src k ks with
  | None => PErr (coll_missing k)
  | Some cv =>
      if negb (is_array cv) then PErr (coll_invalid k)
      else
        match map_until (coll_child rec k) (elems cv) with
        | RErr c => PErr c
        | ROk kids =>
            let g := JColl k kids (with_members None (k_foreign ks)) in
            if k <? 3 then check o g E_CoordsInvalid else POk g
        end
  end.

Lemma keys_in_coll (P : jv -> Prop) (k : Z) (ks : pkeys) (cv : jv) : keys_in P ks -> coll_src k ks = Some cv -> P cv.
Proof.
  intros (Hc & Hgs & _ & Hfe & _). unfold coll_src. destruct (k <? 3); [apply Hc|]. destruct (k =? 3); [apply Hgs|apply Hfe].
Qed.

(* what an accepted Point / LineString / Polygon is made of: the coordinates read, the representation chosen, the check passed *)
Lemma parse_pt_ok (o : popts) (ks : pkeys) (g : gobj) : parse_pt o ks = POk g ->
  exists p ex, parse_point_coords true (k_coords ks) = ROk (p, ex) /\ require_valid o && negb (g_valid o g) = false /\
    let ex' := with_members ex (k_foreign ks) in
    (g = JPoint p ex' /\ (ex' = None -> allow_simple o = false) \/ g = JSimple p /\ ex' = None /\ allow_simple o = true).
Proof.
  unfold parse_pt. destruct (parse_point_coords true (k_coords ks)) as [[p ex]|c]; [|discriminate]. cbv zeta. intros H.
  exists p, ex. split; [reflexivity|]. destruct (with_members ex (k_foreign ks)) as [e|].
  - destruct (check_inv _ _ _ _ H) as [-> Hck]. split; [exact Hck|]. left. split; [reflexivity|discriminate].
  - destruct (allow_simple o); destruct (check_inv _ _ _ _ H) as [-> Hck]; (split; [exact Hck|]); [right|left]; repeat split.
Qed.

Lemma parse_ln_ok (o : popts) (ks : pkeys) (g : gobj) : parse_ln o ks = POk g ->
  exists cv ps ex, k_coords ks = Some cv /\ parse_line_coords true (Some cv) = ROk (ps, ex) /\ (2 <= length ps)%nat /\
    g = JLine ps (with_members ex (k_foreign ks)) /\ require_valid o && negb (g_valid o g) = false.
Proof.
  unfold parse_ln. destruct (k_coords ks) as [cv|]; [|discriminate].
  destruct (parse_line_coords true (Some cv)) as [[ps ex]|c] eqn:Ep; [|discriminate].
  destruct (length ps <? 2)%nat eqn:El; [discriminate|]. apply Nat.ltb_ge in El. intros H. destruct (check_inv _ _ _ _ H) as [-> Hck].
  exists cv, ps, ex. repeat split; assumption.
Qed.

Lemma parse_pg_ok (o : popts) (ks : pkeys) (g : gobj) : parse_pg o ks = POk g ->
  exists cv ext holes ex, k_coords ks = Some cv /\ parse_poly_coords true (Some cv) = ROk (ext :: holes, ex) /\
    forallb ring_ok (ext :: holes) = true /\ require_valid o && negb (g_valid o g) = false /\
    let ex' := with_members ex (k_foreign ks) in
    (g = JPoly (ext :: holes) ex' /\ (ex' = None -> holes = [] -> allow_rects o && perfect_rect ext = false) \/
     g = JRect (nth 0 ext (FV 0, FV 0)) (nth 2 ext (FV 0, FV 0)) /\ ex' = None /\ holes = [] /\ allow_rects o && perfect_rect ext = true).
Proof.
  unfold parse_pg. destruct (k_coords ks) as [cv|]; [|discriminate].
  destruct (parse_poly_coords true (Some cv)) as [[rings ex]|c] eqn:Ep; [|discriminate]. destruct rings as [|ext holes]; [discriminate|].
  destruct (forallb ring_ok (ext :: holes)) eqn:Eok; [|discriminate]. cbn [negb]. cbv zeta. intros H.
  exists cv, ext, holes, ex. split; [reflexivity|]. split; [exact Ep|]. split; [exact Eok|].
  destruct (with_members ex (k_foreign ks)) as [e|].
  - destruct (check_inv _ _ _ _ H) as [-> Hck]. split; [exact Hck|]. left. split; [reflexivity|discriminate].
  - destruct holes as [|h holes].
    + destruct (allow_rects o && perfect_rect ext) eqn:Er; destruct (check_inv _ _ _ _ H) as [-> Hck]; (split; [exact Hck|]); [right|left]; repeat split.
    + destruct (check_inv _ _ _ _ H) as [-> Hck]. split; [exact Hck|]. left. split; [reflexivity|]. intros _ E. discriminate E.
Qed.

Lemma parse_ft_ok (rec : jv -> pres) (o : popts) (one : Z) (ks : pkeys) (g : gobj) : parse_ft rec o one ks = POk g ->
  exists gv base, k_geom ks = Some gv /\ rec gv = POk base /\
    (circ_of o one base (k_foreign ks) = Some (POk g) \/
     circ_of o one base (k_foreign ks) = None /\ g = JFeature base (with_members None (k_foreign ks))).
Proof.
  unfold parse_ft. destruct (k_geom ks) as [gv|]; [|discriminate]. destruct (rec gv) as [base|c] eqn:Eb; [|discriminate].
  intros H. exists gv, base. split; [reflexivity|]. split; [exact Eb|].
  destruct (circ_of o one base (k_foreign ks)) as [r|]; [left; rewrite H; reflexivity|right; inversion H; split; reflexivity].
Qed.

Lemma parse_coll_ok (rec : jv -> pres) (o : popts) (k : Z) (ks : pkeys) (g : gobj) : parse_coll rec o k ks = POk g ->
  exists cv kids, coll_src k ks = Some cv /\ map_until (coll_child rec k) (elems cv) = ROk kids /\
    g = JColl k kids (with_members None (k_foreign ks)) /\ (k < 3 -> require_valid o && negb (g_valid o g) = false).
Proof.
  unfold parse_coll. destruct (coll_src k ks) as [cv|]; [|discriminate]. destruct (negb (is_array cv)); [discriminate|].
  destruct (map_until (coll_child rec k) (elems cv)) as [kids|c] eqn:Ek; [|discriminate]. cbv zeta. intros H. exists cv, kids.
  split; [reflexivity|]. split; [exact Ek|]. destruct (k <? 3) eqn:E3.
  - destruct (check_inv _ _ _ _ H) as [-> Hck]. split; [reflexivity|intros _; exact Hck].
  - inversion H; subst. split; [reflexivity|]. apply Z.ltb_ge in E3. intros Hlt. lia.
Qed.

Definition parse_kind (rec : jv -> pres) (o : popts) (one : Z) (K : tkind) (ks : pkeys) : pres :=
  match K with
  | TPoint => parse_pt o ks
  | TLine => parse_ln o ks
  | TPoly => parse_pg o ks
  | TFeature => parse_ft rec o one ks
  | TColl k => parse_coll rec o k ks
  end.

Definition parse_obj (rec : jv -> pres) (o : popts) (one : Z) (ks : pkeys) : pres :=
  match k_type ks with
  | None => PErr E_TypeMissing
  | Some (JStr _ t) => match tkind_of t with Some K => parse_kind rec o one K ks | None => PErr E_TypeUnknown end
  | Some _ => PErr E_TypeInvalid
  end.

Lemma parse_eq (f : nat) (o : popts) (one : Z) (ms : list (jkey * jv)) :
  parse (S f) o one (JObj ms) = parse_obj (parse f o one) o one (scan_keys ms).
Proof.
  cbn [parse]. unfold parse_obj, tkind_of.
  destruct (k_type (scan_keys ms)) as [[| | |r x|r t|l|ms']|]; try reflexivity.
  repeat match goal with |- context [bytes_eqb t ?s] => destruct (bytes_eqb t s); [reflexivity|] end.
  reflexivity.
Qed.

Lemma parse_obj_typed rec o one ks r t K :
  k_type ks = Some (JStr r t) -> tkind_of t = Some K -> parse_obj rec o one ks = parse_kind rec o one K ks.
Proof. intros H HK. unfold parse_obj. rewrite H, HK. reflexivity. Qed.

Lemma parse_obj_ok rec o one ks g : parse_obj rec o one ks = POk g ->
  exists r t K, k_type ks = Some (JStr r t) /\ tkind_of t = Some K /\ parse_kind rec o one K ks = POk g.
Proof.
  unfold parse_obj. destruct (k_type ks) as [[| | |r x|r t|l|ms']|]; try discriminate.
  destruct (tkind_of t) as [K|] eqn:E; [|discriminate]. intros H. exists r, t, K. split; [reflexivity|]. split; [exact E|exact H].
Qed.

Lemma parse_typed f o one ms r t K : last_member s_type ms = Some (JStr r t) -> tkind_of t = Some K ->
  parse (S f) o one (JObj ms) = parse_kind (parse f o one) o one K (scan_keys ms).
Proof. intros H HK. rewrite parse_eq. apply (parse_obj_typed _ _ _ _ r t); [rewrite scan_keys_eq; exact H|exact HK]. Qed.

(* what holds of every accepted object holds if each kind's branch establishes it from what it
   holds of the nested objects *)
Lemma parse_ind (P : jv -> Prop) (Q : gobj -> Prop) (o : popts) (one : Z) :
  (forall rec ms t K g, P (JObj ms) -> (forall v y, P v -> rec v = POk y -> Q y) -> tkind_of t = Some K ->
                        parse_kind rec o one K (scan_keys ms) = POk g -> Q g) ->
  forall fuel v g, P v -> parse fuel o one v = POk g -> Q g.
Proof.
  intros Hobj. induction fuel as [|f IH]; intros v g Hv H; [discriminate|].
  destruct v as [| | |r x|r d|l|ms]; try discriminate. rewrite parse_eq in H.
  destruct (parse_obj_ok _ _ _ _ _ H) as (r & t & K & _ & HK & HKg). exact (Hobj (parse f o one) ms t K g Hv IH HK HKg).
Qed.

(* two runs of Parse, under two option sets, stay related if rejections are related and every kind's branch
   keeps the relation of the nested runs *)
Lemma parse_rel (R : pres -> pres -> Prop) (o1 o2 : popts) (one : Z) :
  (forall c c', R (PErr c) (PErr c')) ->
  (forall rec1 rec2 K ks, (forall v, R (rec1 v) (rec2 v)) -> R (parse_kind rec1 o1 one K ks) (parse_kind rec2 o2 one K ks)) ->
  forall fuel v, R (parse fuel o1 one v) (parse fuel o2 one v).
Proof.
  intros Herr Hkind. induction fuel as [|f IH]; intros v; [apply Herr|].
  destruct v as [| | |raw x|raw d|l|ms]; try apply Herr. rewrite !parse_eq. unfold parse_obj.
  destruct (k_type (scan_keys ms)) as [[| | |r x|r t|l|ms']|]; try apply Herr.
  destruct (tkind_of t) as [K|]; [|apply Herr]. apply Hkind. exact IH.
Qed.

(* C07: listed structural defects are rejected (top level of every document) *)
Theorem reject_missing_type fuel o one ms :
  last_member s_type ms = None -> parse (S fuel) o one (JObj ms) = PErr E_TypeMissing.
Proof. intros H. rewrite parse_eq, scan_keys_eq. unfold parse_obj. cbn [k_type]. rewrite H. reflexivity. Qed.

Theorem reject_nonstring_type fuel o one ms t :
  last_member s_type ms = Some t -> (forall r d, t <> JStr r d) ->
  parse (S fuel) o one (JObj ms) = PErr E_TypeInvalid.
Proof.
  intros H Hn. rewrite parse_eq, scan_keys_eq. unfold parse_obj. cbn [k_type]. rewrite H.
  destruct t; try reflexivity. exfalso. eapply Hn. reflexivity.
Qed.

Definition known_type (t : list Z) : bool :=
  bytes_eqb t s_Point || bytes_eqb t s_LineString || bytes_eqb t s_Polygon || bytes_eqb t s_Feature ||
  bytes_eqb t s_MultiPoint || bytes_eqb t s_MultiLineString || bytes_eqb t s_MultiPolygon ||
  bytes_eqb t s_GeometryCollection || bytes_eqb t s_FeatureCollection.

Lemma tkind_of_unknown (t : list Z) : known_type t = false -> tkind_of t = None.
Proof.
  unfold known_type, tkind_of. rewrite !orb_false_iff. intros [[[[[[[[H1 H2] H3] H4] H5] H6] H7] H8] H9].
  rewrite H1, H2, H3, H4, H5, H6, H7, H8, H9. reflexivity.
Qed.

Theorem reject_unknown_type fuel o one ms r t :
  last_member s_type ms = Some (JStr r t) -> known_type t = false ->
  parse (S fuel) o one (JObj ms) = PErr E_TypeUnknown.
Proof.
  intros H Hk. rewrite parse_eq, scan_keys_eq. unfold parse_obj. cbn [k_type]. rewrite H, (tkind_of_unknown t Hk). reflexivity.
Qed.

Theorem reject_feature_without_geometry fuel o one ms r :
  last_member s_type ms = Some (JStr r s_Feature) -> last_member s_geometry ms = None ->
  parse (S fuel) o one (JObj ms) = PErr E_GeometryMissing.
Proof.
  intros H Hg. rewrite (parse_typed _ _ _ _ _ _ TFeature H eq_refl), scan_keys_eq. cbn [parse_kind]. unfold parse_ft. cbn [k_geom].
  rewrite Hg. reflexivity.
Qed.

Lemma coll_without_members rec o k ks :
  (coll_src k ks = None \/ exists c, coll_src k ks = Some c /\ is_array c = false) ->
  exists code, parse_coll rec o k ks = PErr code.
Proof. unfold parse_coll. intros [->|(c & -> & ->)]; eexists; reflexivity. Qed.

Theorem reject_collection_without_members fuel o one ms r :
  (last_member s_type ms = Some (JStr r s_GeometryCollection) ->
   (last_member s_geometries ms = None \/ exists c, last_member s_geometries ms = Some c /\ is_array c = false) ->
   exists code, parse (S fuel) o one (JObj ms) = PErr code) /\
  (last_member s_type ms = Some (JStr r s_FeatureCollection) ->
   (last_member s_features ms = None \/ exists c, last_member s_features ms = Some c /\ is_array c = false) ->
   exists code, parse (S fuel) o one (JObj ms) = PErr code).
Proof.
  split; intros H Hc.
  - rewrite (parse_typed _ _ _ _ _ _ (TColl 3) H eq_refl). apply coll_without_members. rewrite scan_keys_eq. exact Hc.
  - rewrite (parse_typed _ _ _ _ _ _ (TColl 4) H eq_refl). apply coll_without_members. rewrite scan_keys_eq. exact Hc.
Qed.

(* C07: a well-formed Point document is accepted and decodes to its x,y *)
Theorem accept_point fuel ms r l :
  last_member s_type ms = Some (JStr r s_Point) ->
  last_member s_coordinates ms = Some (JArr l) ->
  forallb is_num l = true -> (2 <= length l <= 4)%nat ->
  forall o, allow_simple o = false -> require_valid o = false ->
  exists ex, parse (S fuel) o 1 (JObj ms) = POk (JPoint (num_of (nth 0 l JNull), num_of (nth 1 l JNull)) ex).
Proof.
  intros H Hc Hn Hlen o Hs Hv. rewrite (parse_typed _ _ _ _ _ _ TPoint H eq_refl), scan_keys_eq. cbn [parse_kind].
  unfold parse_pt, check. cbn [k_coords k_foreign]. rewrite Hc, point_coords_arr, (take_nums_isnum true 4 l Hn).
  destruct l as [|a [|b l']]; cbn [length] in Hlen; try lia.
  cbn [firstn map nth]. rewrite Hv, Hs. cbn [andb].
  destruct (with_members _ _); eexists; reflexivity.
Qed.

Print Assumptions append_contract.
Print Assumptions scan_keys_last.
Print Assumptions reject_unknown_type.
Print Assumptions accept_point.
