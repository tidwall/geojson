(* ObjLaws.v — property C09: "if A contains a non-empty B then A intersects B", for the receivers
   whose Contains is decided by rectangles (Point, Rect): all four argument kinds (polygons without
   holes).  Contains puts every vertex of B in A; the first vertex is the shared point that the
   point-set characterisations of Intersects ask for.  Line and Polygon receivers: ObjLaws2.v. *)
From GJ Require Import Base SeriesSpec Ring RingSpec PairSpec Pairs PairProofs KernelProofs IntersectsProofs
  JordanQ JordanRing JordanRect ObjProofs ObjSelf.
Import ListNotations.
Open Scope Z_scope.

Lemma scr_1 q : scr 1 q = q.
Proof. destruct q as [a b]. unfold scr. cbn [fst snd]. rewrite !sc_1. reflexivity. Qed.

Definition rect_decided (s : shape) : Prop := match s with SPoint _ | SRect _ => True | _ => False end.

Theorem g_contains_intersects (a b : shape) : rect_decided a -> s_wf a -> s_wf b ->
  g_contains (g_of_shape a) (g_of_shape b) = Some true ->
  g_intersects (g_of_shape a) (g_of_shape b) = true.
Proof.
  destruct a as [p|r|?|? ?]; cbn [rect_decided]; try tauto; intros _ Hwa Hwb;
    destruct b as [q|o|ps|e hs]; rewrite ?g_of_line, ?g_of_poly; cbn [g_of_shape g_contains g_intersects ob s_wf] in *; intros [= H].
  - exact H.
  - apply point_contains_rect_spec in H. subst o. rewrite point_intersects_rect_spec. apply in_rectb_inbox. rect_lia.
  - apply point_contains_line_spec in H. destruct H as [L2 Hall]. rewrite point_intersects_line_spec.
    destruct ps as [|x [|y l]]; cbn in L2; try lia. rewrite <- (Hall x (or_introl eq_refl)).
    unfold in_lineb, on_boundaryb. cbn [path_segs existsb]. apply orb_true_iff. left. apply on_segb_iff. apply on_seg_left.
  - subst hs. apply point_contains_poly_spec in H. destruct H as [H3 Hall].
    rewrite point_intersects_poly_spec. unfold in_polyb. cbn [map forallb]. rewrite andb_true_r.
    destruct e as [|x e']; [cbn in H3; lia|]. rewrite <- (Hall x (or_introl eq_refl)).
    apply vertex_on_boundary; [exact H3|left; reflexivity].
  - exact H.
  - apply rcr_rir; assumption.
  - apply rect_contains_line_spec in H. destruct H as [L2 Hall].
    apply (rect_intersects_line_pointset r ps Hwa). split; [exact L2|].
    destruct ps as [|x [|y l]]; cbn in L2; try lia.
    exists (x, y), 1, x. split; [left; reflexivity|]. split; [lia|]. cbn [fst snd]. rewrite !sc_1, scr_1.
    split; [apply on_seg_left|]. apply Hall. left. reflexivity.
  - subst hs. apply rect_contains_poly_spec in H. destruct H as [H3 Hall].
    unfold rect_intersects_poly. apply (poly_intersects_rect_noholes e r Hwa). split; [exact H3|].
    destruct e as [|x e']; [cbn in H3; lia|].
    exists 1, x. split; [lia|]. rewrite edges_at_1, scr_1.
    split; [apply vertex_on_boundary; [exact H3|]|apply Hall]; left; reflexivity.
Qed.

Print Assumptions g_contains_intersects.

(* ... and for every receiver when the argument is a point: Contains and Intersects are one function *)
Theorem g_contains_point_intersects (a : shape) (q : pt) :
  g_contains (g_of_shape a) (GPoint q) = Some true -> g_intersects (g_of_shape a) (GPoint q) = true.
Proof.
  destruct a as [p|r|ps|e hs]; cbn [g_of_shape g_contains g_intersects ob]; intros H; injection H as H'; exact H'.
Qed.
