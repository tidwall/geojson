(* ParseInfo.v — property C06, the information clause.
   Foreign members: every object Parse returns (other than a Circle, the known
   finding) stores exactly the document's non-reserved members, with their
   values, in their original order (duplicates included); the writers splice
   that list after the two reserved members (EmitProofs.emit_jv).  No
   hypothesis on the document.
   z / m values: for coordinates whose positions are well formed (two to four
   finite numbers each), the extra that the LineString and Polygon coordinate
   parsers return is the one the first position declares (declared_extra). *)
From GJ Require Import Base JsonConst Json JsonSpec JsonProofs EmitProofs RoundTrip ParsedForm ParseSpec.
Open Scope Z_scope.

Definition top_extra (g : gobj) : option extra :=
  match g with
  | JPoint _ ex | JLine _ ex | JPoly _ ex | JFeature _ ex | JColl _ _ ex => ex
  | _ => None
  end.

Lemma with_members_members (ex : option extra) (foreign : list (jkey * jv)) :
  no_members ex -> ex_members (with_members ex foreign) = foreign.
Proof.
  intros H. destruct foreign as [|m r]; cbn [with_members].
  - destruct ex as [e|]; [|reflexivity]. cbn [no_members ex_members] in *. rewrite H. reflexivity.
  - destruct ex as [e|]; reflexivity.
Qed.

Lemma with_members_none (ex : option extra) (foreign : list (jkey * jv)) : with_members ex foreign = None -> foreign = [].
Proof. destruct foreign as [|m r]; [reflexivity|]. cbn [with_members]. destruct ex; discriminate. Qed.

(* the coordinate parsers hand over an extra without members *)
Lemma st_ok_members (n : nat) (ex : option extra) (foreign : list (jkey * jv)) :
  st_ok n ex -> ex_members (with_members ex foreign) = foreign.
Proof. intros H. exact (with_members_members ex foreign (proj2 (st_ok_child n ex H))). Qed.

Definition is_circle (g : gobj) : bool := match g with JCircle _ _ => true | _ => false end.

Theorem parse_keeps_foreign (fuel : nat) (o : popts) (one : Z) (ms : list (jkey * jv)) (g : gobj) :
  parse fuel o one (JObj ms) = POk g -> is_circle g = false ->
  ex_members (top_extra g) = filter foreign_key ms.
Proof.
  destruct fuel as [|f]; [discriminate|]. rewrite parse_eq, <- foreign_is_filter. intros H Hc.
  set (ks := scan_keys ms) in *. set (foreign := k_foreign ks). apply parse_obj_ok in H. destruct H as (_ & _ & K & _ & _ & H).
  destruct K as [| | | |k]; cbn [parse_kind] in H.
  - destruct (parse_pt_ok _ _ _ H) as (p & ex & Ep & _ & Hg'). fold foreign in Hg'.
    pose proof (st_ok_members 1 ex foreign (point_coords_form _ _ _ _ Ep)) as Hm.
    destruct Hg' as [[-> _]|(-> & Ew & _)]; [exact Hm|rewrite Ew in Hm; exact Hm].
  - destruct (parse_ln_ok _ _ _ H) as (cv & ps & ex & _ & Ep & _ & -> & _).
    exact (st_ok_members _ ex foreign (line_coords_st _ _ _ _ Ep)).
  - destruct (parse_pg_ok _ _ _ H) as (cv & ext & holes & ex & _ & Ep & _ & _ & Hg'). fold foreign in Hg'.
    pose proof (st_ok_members _ ex foreign (poly_coords_st _ _ _ _ Ep)) as Hm.
    destruct Hg' as [[-> _]|(-> & Ew & _)]; [exact Hm|rewrite Ew in Hm; exact Hm].
  - destruct (parse_ft_ok _ _ _ _ _ H) as (gv & base & _ & _ & [Ec|[_ ->]]); [|exact (with_members_members None foreign I)].
    destruct (circ_of_ok _ _ _ _ _ Ec) as (p & m & _ & -> & _). discriminate Hc.
  - destruct (parse_coll_ok _ _ _ _ _ H) as (cv & kids & _ & _ & -> & _). exact (with_members_members None foreign I).
Qed.

(* z / m values: the dimensionality is declared by the first position; every
   position contributes exactly that many values - its own, truncated, or padded
   with zeros - in document order, across the rings of a polygon *)
Definition pos_more (p : jv) : list fnum := map num_of (skipn 2 (elems p)).
Definition pos_pad (d : nat) (p : jv) : list fnum := pad_dims d (pos_more p).

Definition declared_extra (ls : list jv) : option extra :=
  match ls with
  | [] => None
  | p0 :: _ =>
      match length (pos_more p0) with
      | O => None
      | d => Some {| dims := d; values := flat_map (pos_pad d) ls; members := None |}
      end
  end.

(* once values are being kept, every well-formed position appends its padded values *)
Lemma pos_fold_values (mixed arr : bool) (d : nat) : forall (l : list jv) (pts : list fpt) (vals : list fnum) (f : bool),
  Forall wfposv l ->
  fold_left (pos_step mixed arr) l (ROk (pts, Some {| dims := d; values := vals; members := None |}, f))
  = ROk (rev (map pos_xy l) ++ pts, Some {| dims := d; values := vals ++ flat_map (pos_pad d) l; members := None |},
         match l with [] => f | _ => false end).
Proof.
  induction l as [|p l IH]; intros pts vals f Hw.
  - cbn. rewrite app_nil_r. reflexivity.
  - inversion Hw as [|? ? (lp & -> & Hp) Hw']; subst. cbn [fold_left].
    rewrite (pos_step_wfpos mixed arr pts _ f lp Hp). cbn [next_extra dims values].
    rewrite (IH _ _ false Hw'). cbn [map rev flat_map]. rewrite <- !app_assoc. cbn [app].
    destruct l; reflexivity.
Qed.

Lemma pos_fold_two (arr : bool) : forall (l : list jv) (acc pts' : list fpt) (ex' : option extra) (f' : bool),
  Forall wfposv l -> fold_left (pos_step false arr) l (ROk (acc, None, false)) = ROk (pts', ex', f') -> ex' = None.
Proof.
  induction l as [|q l IH]; intros acc pts' ex' f' Hw H.
  - cbn in H. inversion H. reflexivity.
  - inversion Hw as [|? ? (lq & -> & Hq) Hw']; subst. cbn [fold_left] in H.
    rewrite (pos_step_wfpos false arr acc None false lq Hq) in H. cbn [next_extra] in H.
    destruct (map num_of (skipn 2 lq)); [|rewrite pos_fold_err in H; discriminate].
    exact (IH _ _ _ _ Hw' H).
Qed.

(* from the initial state: the first position declares the dimensionality *)
Lemma pos_fold_declared (mixed arr : bool) (l : list jv) (pts' : list fpt) (ex' : option extra) (f' : bool) :
  Forall wfposv l ->
  fold_left (pos_step mixed arr) l (ROk ([], None, true)) = ROk (pts', ex', f') ->
  (mixed = false -> ex' = declared_extra l) /\ pts' = rev (map pos_xy l).
Proof.
  intros Hw H. split; [|rewrite (pos_fold_shape _ _ _ _ _ _ _ _ _ H); apply app_nil_r].
  intros Hmix. subst mixed. destruct l as [|p l]; [cbn in H; inversion H; reflexivity|].
  inversion Hw as [|? ? (lp & -> & Hp) Hw']; subst. cbn [fold_left] in H.
  cbn [declared_extra]. rewrite (pos_step_wfpos false arr [] None true lp Hp) in H. cbn [next_extra] in H.
  change (map num_of (skipn 2 lp)) with (pos_more (JArr lp)) in H. destruct (pos_more (JArr lp)) as [|m0 more] eqn:Emore.
  - (* two ordinates: nothing is kept, and every later position has two as well (else Parse fails) *)
    cbn [length]. exact (pos_fold_two arr l _ _ _ _ Hw' H).
  - rewrite (pos_fold_values false arr (length (m0 :: more)) l _ _ false Hw') in H. inversion H; subst.
    cbn [length flat_map]. unfold pos_pad at 2. rewrite Emore.
    change (S (length more)) with (length (m0 :: more)). rewrite pad_self. reflexivity.
Qed.

(* LineString / MultiLineString member *)
Theorem line_values (top : bool) (l : list jv) (ps : list fpt) (ex : option extra) :
  Forall wfposv l -> parse_line_coords top (Some (JArr l)) = ROk (ps, ex) ->
  ex = declared_extra l /\ ps = map pos_xy l.
Proof.
  intros Hw H. destruct (line_coords_ok _ _ _ _ H) as (pts & f & E & ->). cbn [elems] in E.
  destruct (pos_fold_declared MIXED_OK true l pts ex f Hw E) as [A B]. split; [exact (A eq_refl)|].
  rewrite B, rev_involutive. reflexivity.
Qed.

(* Polygon / MultiPolygon member: the values run across the rings *)
Definition wfring_pos (r : jv) : Prop := exists l, r = JArr l /\ Forall wfposv l.

Lemma ring_fold_values (d : nat) : forall (rs : list jv) (rings : list (list fpt)) (vals : list fnum) (f : bool),
  Forall wfring_pos rs ->
  exists f', fold_left ring_step rs (ROk (rings, Some {| dims := d; values := vals; members := None |}, f))
  = ROk (rev (map ring_pts rs) ++ rings,
         Some {| dims := d; values := vals ++ flat_map (pos_pad d) (concat (map elems rs)); members := None |}, f').
Proof.
  induction rs as [|r rs IH]; intros rings vals f Hw.
  - exists f. cbn. rewrite app_nil_r. reflexivity.
  - inversion Hw as [|? ? (l & -> & Hl) Hw']; subst. cbn [fold_left]. rewrite ring_step_arr.
    rewrite (pos_fold_values MIXED_OK false d l [] vals f Hl). rewrite app_nil_r, rev_involutive.
    destruct (IH (map pos_xy l :: rings) (vals ++ flat_map (pos_pad d) l) false Hw') as [f' E]. exists f'. rewrite E.
    cbn [map rev concat elems]. unfold ring_pts at 2. cbn [elems]. rewrite <- !app_assoc. cbn [app]. rewrite flat_map_app. reflexivity.
Qed.

Lemma ring_fold_two : forall (rs : list jv) (rings rings' : list (list fpt)) (ex' : option extra) (f' : bool),
  Forall wfring_pos rs -> fold_left ring_step rs (ROk (rings, None, false)) = ROk (rings', ex', f') -> ex' = None.
Proof.
  induction rs as [|r rs IH]; intros rings rings' ex' f' Hw H.
  - cbn in H. inversion H. reflexivity.
  - inversion Hw as [|? ? (l & -> & Hl) Hw']; subst. cbn [fold_left] in H. rewrite ring_step_arr in H.
    destruct (fold_left (pos_step MIXED_OK false) l (ROk ([], None, false))) as [[[pts e] f1]|c] eqn:E; [|rewrite ring_fold_err in H; discriminate].
    rewrite (pos_fold_two false l [] pts e f1 Hl E) in H. exact (IH _ _ _ _ Hw' H).
Qed.

Theorem polygon_values (top : bool) (rs : list jv) (rings : list (list fpt)) (ex : option extra) :
  Forall wfring_pos rs -> (match rs with r1 :: _ => elems r1 <> [] | [] => True end) ->
  parse_poly_coords top (Some (JArr rs)) = ROk (rings, ex) ->
  ex = declared_extra (concat (map elems rs)) /\ rings = map ring_pts rs.
Proof.
  intros Hw Hne H. split; [|exact (poly_coords_shape top rs rings ex H)].
  destruct (poly_coords_ok _ _ _ _ H) as (rr & f & E & _). cbn [elems] in E. clear H.
  destruct rs as [|r1 rs]; [cbn in E; inversion E; reflexivity|].
  inversion Hw as [|? ? (l1 & -> & Hl1) Hw']; subst. cbn [elems] in Hne. cbn [fold_left] in E. rewrite ring_step_arr in E.
  destruct (fold_left (pos_step MIXED_OK false) l1 (ROk ([], None, true))) as [[[pts0 e0] f0]|c0] eqn:E0;
    [|rewrite ring_fold_err in E; discriminate].
  destruct (pos_fold_declared MIXED_OK false l1 pts0 e0 f0 Hl1 E0) as [A _]. specialize (A eq_refl). subst e0.
  destruct l1 as [|p0 l1]; [congruence|]. cbn [map concat elems app declared_extra] in *.
  destruct (length (pos_more p0)) as [|d'] eqn:Ed.
  - exact (ring_fold_two rs _ _ _ _ Hw' E).
  - destruct (ring_fold_values (S d') rs [rev pts0] (flat_map (pos_pad (S d')) (p0 :: l1)) false Hw') as [f' E2].
    rewrite E2 in E. inversion E; subst. change (p0 :: l1 ++ concat (map elems rs)) with ((p0 :: l1) ++ concat (map elems rs)).
    rewrite flat_map_app. reflexivity.
Qed.

Definition is_feature (g : gobj) : bool := match g with JFeature _ _ => true | _ => false end.

Lemma emit_members (fmt : Z -> list Z) (g : gobj) : is_circle g = false ->
  exists a b, emit_jv fmt g = JObj (a :: b :: extra_members (top_extra g) (is_feature g)).
Proof. destruct g; cbn [is_circle]; intros H; try discriminate; cbn [emit_jv top_extra is_feature]; eexists; eexists; reflexivity. Qed.

(* the writers put the foreign members right after the two reserved members (a Feature adds the default
   "properties" member at the end when the document had none) *)
Theorem written_members (fmt : Z -> list Z) (fuel : nat) (o : popts) (one : Z) (ms : list (jkey * jv)) (g : gobj) :
  parse fuel o one (JObj ms) = POk g -> is_circle g = false ->
  exists a b, emit_jv fmt g =
    JObj (a :: b :: filter foreign_key ms ++
          (if is_feature g then match first_member s_properties (filter foreign_key ms) with Some _ => [] | None => [props_member] end else [])).
Proof.
  intros H Hc. destruct (emit_members fmt g Hc) as (a & b & E). exists a, b. rewrite E. f_equal. f_equal. f_equal.
  pose proof (parse_keeps_foreign fuel o one ms g H Hc) as Hm. destruct (is_feature g).
  - rewrite extra_members_true, Hm. reflexivity.
  - rewrite extra_members_false, Hm, app_nil_r. reflexivity.
Qed.

Print Assumptions parse_keeps_foreign.
Print Assumptions line_values.
Print Assumptions polygon_values.
Print Assumptions written_members.
