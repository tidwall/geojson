(* IntersectsProofs.v — C19: Segment.IntersectsSegment (repaired) equals the
   textbook orientation characterisation [seg_meet]; symmetry; ContainsSegment;
   CollinearPoint; the pinned code's asymmetry (finding F1) as a theorem. *)
From GJ Require Import Base Kernel KernelSpec RaycastProofs KernelProofs.

Lemma axis_disjoint_iff a b c d :
  axis_disjoint a b c d = true <->
  (Z.max a b < Z.min c d \/ Z.max c d < Z.min a b).
Proof.
  unfold axis_disjoint.
  destruct (Z.ltb_spec b a), (Z.ltb_spec d c);
    rewrite orb_true_iff, !Z.ltb_lt; lia.
Qed.

(* n/d lies in [0,1], d <> 0 *)
Definition unit_fracP (n d : Z) : Prop :=
  (0 < d /\ 0 <= n <= d) \/ (d <= 0 /\ d <= n <= 0).

Lemma unit_frac_iff n d : unit_frac n d = true <-> unit_fracP n d.
Proof.
  unfold unit_frac, unit_fracP.
  destruct (Z.ltb_spec 0 d); rewrite andb_true_iff, !Z.leb_le; lia.
Qed.

Lemma on_seg_left a b : on_seg (a, b) a.
Proof. unfold on_seg, cross. split; [ring | lia]. Qed.

Lemma on_seg_right a b : on_seg (a, b) b.
Proof. unfold on_seg, cross. split; [ring | lia]. Qed.

Lemma minmax_cases a b :
  (a <= b /\ Z.min a b = a /\ Z.max a b = b) \/ (b <= a /\ Z.min a b = b /\ Z.max a b = a).
Proof. lia. Qed.

(* two intervals overlap exactly when an end of one lies in the other *)
Lemma overlap_iff_end_inside a b c d :
  ~ (Z.max a b < Z.min c d \/ Z.max c d < Z.min a b) <->
  (Z.min a b <= c <= Z.max a b \/ Z.min a b <= d <= Z.max a b \/
   Z.min c d <= a <= Z.max c d \/ Z.min c d <= b <= Z.max c d).
Proof.
  destruct (minmax_cases a b) as [(? & -> & ->)|(? & -> & ->)],
           (minmax_cases c d) as [(? & -> & ->)|(? & -> & ->)]; lia.
Qed.

(* x - a and x - b of different sign: x lies between a and b, which differ *)
Lemma straddle_between a b x :
  (x - a <=? 0) <> (x - b <=? 0) -> a <> b /\ Z.min a b <= x <= Z.max a b.
Proof.
  destruct (Z.leb_spec (x - a) 0), (Z.leb_spec (x - b) 0); intros N; try congruence; lia.
Qed.

(* the Go code's cmpx*ry - cmpy*rx *)
Lemma cmp_cross a b c :
  (px c - px a) * (py b - py a) - (py c - py a) * (px b - px a) = - cross a b c.
Proof. unfold cross. ring. Qed.

Lemma pt_eq_coords (p q : pt) : px p = px q -> py p = py q -> p = q.
Proof. destruct p, q; unfold px, py; simpl; congruence. Qed.

Lemma sqdist_pos (a b : pt) : a <> b ->
  0 < (px b - px a) * (px b - px a) + (py b - py a) * (py b - py a).
Proof.
  intros Hne.
  destruct (Z.eq_dec (px b) (px a)), (Z.eq_dec (py b) (py a)); [|nia ..].
  exfalso. apply Hne, pt_eq_coords; lia.
Qed.

(* x = a + (n/d)(b - a): n/d is in [0,1] exactly when x lies between a and b *)

Lemma frac_within n d a b x :
  d * (x - a) = n * (b - a) -> d <> 0 -> unit_fracP n d ->
  Z.min a b <= x <= Z.max a b.
Proof.
  intros E Hd [[? ?]|[? ?]]; destruct (Z.lt_trichotomy a b) as [?|[?|?]];
    split; nia.
Qed.

Lemma frac_within_inv n d a b x :
  d * (x - a) = n * (b - a) -> a <> b -> d <> 0 ->
  Z.min a b <= x <= Z.max a b -> unit_fracP n d.
Proof.
  intros E Hr Hd Hk. unfold unit_fracP.
  destruct (Z.lt_trichotomy a b) as [Hr'|[Hr'|Hr']]; [| lia |];
  destruct (Z.lt_trichotomy 0 d) as [Hd'|[Hd'|Hd']]; try lia;
    [left | right | left | right]; repeat split; nia.
Qed.

(* [cross a b] is affine along a segment *)
Lemma cross_param (a b P V W : pt) (n d : Z) :
  d * (px W - px P) = n * (px V - px P) -> d * (py W - py P) = n * (py V - py P) ->
  d * cross a b W = (d - n) * cross a b P + n * cross a b V.
Proof.
  intros Ex Ey.
  transitivity ((px b - px a) * (d * (py W - py P)) - (py b - py a) * (d * (px W - px P)) + d * cross a b P);
    [|rewrite Ex, Ey]; unfold cross; ring.
Qed.

(* q = a + (n/R)(b - a) is on the line a b, ... *)
Lemma param_collinear a b q n R :
  R <> 0 ->
  R * (px q - px a) = n * (px b - px a) -> R * (py q - py a) = n * (py b - py a) ->
  cross a b q = 0.
Proof.
  intros HR Ex Ey. pose proof (cross_param a b a b q n R Ex Ey) as E.
  replace (cross a b a) with 0 in E by (unfold cross; ring).
  replace (cross a b b) with 0 in E by (unfold cross; ring).
  lia.
Qed.

(* ... on the segment when n/R is in [0,1], ... *)
Lemma on_seg_of_frac a b q n R :
  R * (px q - px a) = n * (px b - px a) -> R * (py q - py a) = n * (py b - py a) ->
  R <> 0 -> unit_fracP n R -> on_seg (a, b) q.
Proof.
  intros Ex Ey HR H. unfold on_seg. split; [exact (param_collinear a b q n R HR Ex Ey)|].
  split; [exact (frac_within n R _ _ _ Ex HR H) | exact (frac_within n R _ _ _ Ey HR H)].
Qed.

(* ... and only then, unless a = b *)
Lemma on_seg_frac a b q n R :
  R <> 0 -> px b - px a <> 0 \/ py b - py a <> 0 ->
  R * (px q - px a) = n * (px b - px a) -> R * (py q - py a) = n * (py b - py a) ->
  (on_seg (a, b) q <-> unit_fracP n R).
Proof.
  intros HR Hr Ex Ey. split; [|apply on_seg_of_frac; assumption].
  unfold on_seg. intros (_ & Hx & Hy). destruct Hr as [Hr|Hr].
  - apply (frac_within_inv n R (px a) (px b) (px q)); auto; lia.
  - apply (frac_within_inv n R (py a) (py b) (py q)); auto; lia.
Qed.

(* a point of the line a b lying between the endpoints on one axis, on which
   they differ, lies between them on the other too *)
Lemma collinear_other_axis ax ay bx by_ cx cy :
  (bx - ax) * (cy - ay) - (by_ - ay) * (cx - ax) = 0 -> ax <> bx ->
  Z.min ax bx <= cx <= Z.max ax bx -> Z.min ay by_ <= cy <= Z.max ay by_.
Proof.
  intros E N H.
  destruct (Z.lt_trichotomy ay by_) as [?|[?|?]];
    destruct (Z.lt_trichotomy ax bx) as [?|[?|?]]; try lia; split; nia.
Qed.

Lemma collinear_in a b c :
  cross a b c = 0 ->
  (px a <> px b /\ Z.min (px a) (px b) <= px c <= Z.max (px a) (px b)) \/
  (py a <> py b /\ Z.min (py a) (py b) <= py c <= Z.max (py a) (py b)) ->
  on_seg (a, b) c.
Proof.
  unfold on_seg, cross. intros E H. split; [exact E|]. destruct H as [[N H]|[N H]].
  - split; [exact H|]. exact (collinear_other_axis _ _ _ _ _ _ E N H).
  - split; [|exact H]. apply (collinear_other_axis (py a) (px a) (py b) (px b) (py c) (px c)); [lia | exact N | exact H].
Qed.

Lemma collinear_in_x a b c :
  cross a b c = 0 -> px a <> px b ->
  Z.min (px a) (px b) <= px c <= Z.max (px a) (px b) -> on_seg (a, b) c.
Proof. intros E N H. apply collinear_in; [exact E | left; split; assumption]. Qed.

Lemma collinear_in_y a b c :
  cross a b c = 0 -> py a <> py b ->
  Z.min (py a) (py b) <= py c <= Z.max (py a) (py b) -> on_seg (a, b) c.
Proof. intros E N H. apply collinear_in; [exact E | right; split; assumption]. Qed.

(* Two segments a->b (direction r) and c->d (direction s).  In the comments below
   A = cross a b c, B = cross a b d, C = cross c d a, D = cross c d b, and R = r x s: *)
Definition rxs (a b c d : pt) : Z :=
  (px b - px a) * (py d - py c) - (py b - py a) * (px d - px c).

Lemma id_B a b c d : cross a b d = cross a b c + rxs a b c d.
Proof. unfold cross, rxs. ring. Qed.

Lemma id_D a b c d : cross c d b = cross c d a - rxs a b c d.
Proof. unfold cross, rxs. ring. Qed.

(* Cramer: the meeting point q of the two lines satisfies
   rxs*(q-a) = C*r and rxs*(q-c) = -A*s; the identities below relate each of
   the four endpoints to q. *)
Lemma id_dx a b c d :
  rxs a b c d * (px d - px a) = cross c d a * (px b - px a) + cross a b d * (px d - px c).
Proof. unfold cross, rxs. ring. Qed.
Lemma id_dy a b c d :
  rxs a b c d * (py d - py a) = cross c d a * (py b - py a) + cross a b d * (py d - py c).
Proof. unfold cross, rxs. ring. Qed.

Lemma id_ax a b c d :
  rxs a b c d * (px a - px c) = - cross a b c * (px d - px c) - cross c d a * (px b - px a).
Proof. unfold cross, rxs. ring. Qed.
Lemma id_ay a b c d :
  rxs a b c d * (py a - py c) = - cross a b c * (py d - py c) - cross c d a * (py b - py a).
Proof. unfold cross, rxs. ring. Qed.

Lemma id_bx a b c d :
  rxs a b c d * (px b - px c) = - cross a b c * (px d - px c) - cross c d b * (px b - px a).
Proof. unfold cross, rxs. ring. Qed.
Lemma id_by a b c d :
  rxs a b c d * (py b - py c) = - cross a b c * (py d - py c) - cross c d b * (py b - py a).
Proof. unfold cross, rxs. ring. Qed.

(* the two convex-combination expressions of the meeting point *)
Lemma id_meet_x a b c d :
  cross c d a * px b - cross c d b * px a = cross a b d * px c - cross a b c * px d.
Proof. unfold cross. ring. Qed.
Lemma id_meet_y a b c d :
  cross c d a * py b - cross c d b * py a = cross a b d * py c - cross a b c * py d.
Proof. unfold cross. ring. Qed.

(* parallel lines: sx*A = -rx*C - (ax-cx)*rxs etc. *)
Lemma id_par_x a b c d :
  (px d - px c) * cross a b c = - (px b - px a) * cross c d a - (px a - px c) * rxs a b c d.
Proof. unfold cross, rxs. ring. Qed.
Lemma id_par_y a b c d :
  (py d - py c) * cross a b c = - (py b - py a) * cross c d a - (py a - py c) * rxs a b c d.
Proof. unfold cross, rxs. ring. Qed.

(* two convex combinations (equal total weight) of separated pairs differ *)
Lemma convex_sep w1 w2 v1 v2 y1 y2 z1 z2 :
  0 <= w1 -> 0 <= w2 -> 0 <= v1 -> 0 <= v2 -> 0 < w1 + w2 -> w1 + w2 = v1 + v2 ->
  w1 * y1 + w2 * y2 = v1 * z1 + v2 * z2 ->
  Z.max y1 y2 < Z.min z1 z2 -> False.
Proof.
  intros W1 W2 V1 V2 P ES EQ Hs.
  set (m := Z.min z1 z2) in *. set (M := Z.max y1 y2) in *.
  pose proof (Z.mul_nonneg_nonneg w1 (M - y1) W1). pose proof (Z.mul_nonneg_nonneg w2 (M - y2) W2).
  pose proof (Z.mul_nonneg_nonneg v1 (z1 - m) V1). pose proof (Z.mul_nonneg_nonneg v2 (z2 - m) V2).
  pose proof (Z.mul_pos_pos (w1 + w2) (m - M) P).
  lia.
Qed.

Lemma convex_overlap w1 w2 v1 v2 y1 y2 z1 z2 :
  0 <= w1 -> 0 <= w2 -> 0 <= v1 -> 0 <= v2 -> 0 < w1 + w2 -> w1 + w2 = v1 + v2 ->
  w1 * y1 + w2 * y2 = v1 * z1 + v2 * z2 ->
  ~ (Z.max y1 y2 < Z.min z1 z2 \/ Z.max z1 z2 < Z.min y1 y2).
Proof.
  intros W1 W2 V1 V2 P ES EQ [H|H].
  - exact (convex_sep w1 w2 v1 v2 y1 y2 z1 z2 W1 W2 V1 V2 P ES EQ H).
  - symmetry in EQ. rewrite ES in P. symmetry in ES.
    exact (convex_sep v1 v2 w1 w2 z1 z2 y1 y2 V1 V2 W1 W2 P ES EQ H).
Qed.

(* c, d strictly on opposite sides of the line a b *)
Definition opp (a b c d : pt) : Prop :=
  0 < cross a b c /\ cross a b d < 0 \/ cross a b c < 0 /\ 0 < cross a b d.

Lemma seg_meet_unfold a b c d :
  seg_meet (a, b) (c, d) <->
  (on_seg (a, b) c \/ on_seg (a, b) d \/ on_seg (c, d) a \/ on_seg (c, d) b \/
   (opp a b c d /\ opp c d a b)).
Proof. reflexivity. Qed.

(* at a proper crossing the lines are transversal and both Cramer quotients lie in [0,1] *)
Lemma opp_unit_frac a b c d : opp a b c d -> opp c d a b ->
  rxs a b c d <> 0 /\
  unit_fracP (cross c d a) (rxs a b c d) /\ unit_fracP (- cross a b c) (rxs a b c d).
Proof. pose proof (id_B a b c d). pose proof (id_D a b c d). unfold opp, unit_fracP. lia. Qed.

(* a proper crossing forces the bounding boxes to overlap on each axis: [f] is
   [px] or [py], and the hypothesis on it is [id_meet_x] or [id_meet_y] *)
Lemma opp_overlap (f : pt -> Z) a b c d :
  cross c d a * f b - cross c d b * f a = cross a b d * f c - cross a b c * f d ->
  opp a b c d -> opp c d a b ->
  ~ (Z.max (f a) (f b) < Z.min (f c) (f d) \/ Z.max (f c) (f d) < Z.min (f a) (f b)).
Proof.
  unfold opp. intros HM H1 H2.
  pose proof (id_B a b c d) as HB. pose proof (id_D a b c d) as HD.
  destruct H1 as [[? ?]|[? ?]], H2 as [[? ?]|[? ?]]; try lia.
  - apply (convex_overlap (cross c d b) (- cross c d a) (- cross a b d) (cross a b c)); lia.
  - apply (convex_overlap (- cross c d b) (cross c d a) (cross a b d) (- cross a b c)); lia.
Qed.

Lemma seg_meet_overlap_y a b c d :
  seg_meet (a, b) (c, d) ->
  ~ (Z.max (py a) (py b) < Z.min (py c) (py d) \/
     Z.max (py c) (py d) < Z.min (py a) (py b)).
Proof.
  rewrite seg_meet_unfold. unfold on_seg.
  intros [H|[H|[H|[H|[H1 H2]]]]]; [apply overlap_iff_end_inside; tauto .. |].
  exact (opp_overlap py a b c d (id_meet_y a b c d) H1 H2).
Qed.

Lemma seg_meet_overlap_x a b c d :
  seg_meet (a, b) (c, d) ->
  ~ (Z.max (px a) (px b) < Z.min (px c) (px d) \/
     Z.max (px c) (px d) < Z.min (px a) (px b)).
Proof.
  rewrite seg_meet_unfold. unfold on_seg.
  intros [H|[H|[H|[H|[H1 H2]]]]]; [apply overlap_iff_end_inside; tauto .. |].
  exact (opp_overlap px a b c d (id_meet_x a b c d) H1 H2).
Qed.

(* a non-zero determinant has no zero column *)
Lemma det_nz x y u v : x * u - y * v <> 0 -> (x <> 0 \/ y <> 0) /\ (v <> 0 \/ u <> 0).
Proof. intros H. split; nia. Qed.

(* parallel, non-collinear: no meeting *)
Lemma parallel_no_meet a b c d :
  cross a b c <> 0 -> rxs a b c d = 0 -> ~ seg_meet (a, b) (c, d).
Proof.
  intros HA HR. rewrite seg_meet_unfold. unfold opp, on_seg.
  pose proof (id_B a b c d) as HB. pose proof (id_D a b c d) as HD.
  pose proof (id_par_x a b c d) as HPx. pose proof (id_par_y a b c d) as HPy.
  rewrite HR in *.
  assert (HC : cross c d a = 0 -> px d - px c = 0 /\ py d - py c = 0).
  { intros E. rewrite E in *. split; [clear - HPx HA | clear - HPy HA]; nia. }
  (* an end of a b on c d: then c = d is that end, which is on the line a b *)
  intros [[E _]|[[E _]|[(E & Hx & Hy)|[(E & Hx & Hy)|[H1 H2]]]]]; [lia | lia | | | lia];
    destruct (HC ltac:(lia)) as [Ex Ey]; apply HA; unfold cross.
  - replace (px c) with (px a) by lia. replace (py c) with (py a) by lia. ring.
  - replace (px c) with (px b) by lia. replace (py c) with (py b) by lia. ring.
Qed.

(* transversal lines, c off the line a b: the two Cramer quotients are in
   [0,1] exactly when the segments meet.  An endpoint lying on the other line
   is the meeting point, with quotient C/R (d on a b) or -A/R (a or b on c d). *)
Lemma transversal_meet a b c d :
  cross a b c <> 0 -> rxs a b c d <> 0 ->
  (seg_meet (a, b) (c, d) <->
   unit_fracP (cross c d a) (rxs a b c d) /\
   unit_fracP (- cross a b c) (rxs a b c d)).
Proof.
  intros HA HR. rewrite seg_meet_unfold.
  pose proof (id_B a b c d) as HB. pose proof (id_D a b c d) as HD.
  assert (Hd : cross a b d = 0 ->
               (on_seg (a, b) d <-> unit_fracP (cross c d a) (rxs a b c d))).
  { intros E. apply on_seg_frac; [exact HR | exact (proj1 (det_nz _ _ _ _ HA)) | |].
    - rewrite id_dx, E, Z.mul_0_l, Z.add_0_r. reflexivity.
    - rewrite id_dy, E, Z.mul_0_l, Z.add_0_r. reflexivity. }
  assert (Ha : cross c d a = 0 ->
               (on_seg (c, d) a <-> unit_fracP (- cross a b c) (rxs a b c d))).
  { intros E. apply on_seg_frac; [exact HR | exact (proj2 (det_nz _ _ _ _ HR)) | |].
    - rewrite id_ax, E, Z.mul_0_l, Z.sub_0_r. reflexivity.
    - rewrite id_ay, E, Z.mul_0_l, Z.sub_0_r. reflexivity. }
  assert (Hb : cross c d b = 0 ->
               (on_seg (c, d) b <-> unit_fracP (- cross a b c) (rxs a b c d))).
  { intros E. apply on_seg_frac; [exact HR | exact (proj2 (det_nz _ _ _ _ HR)) | |].
    - rewrite id_bx, E, Z.mul_0_l, Z.sub_0_r. reflexivity.
    - rewrite id_by, E, Z.mul_0_l, Z.sub_0_r. reflexivity. }
  (* R/R = 1, 0/R = 0 *)
  assert (F1 : unit_fracP (rxs a b c d) (rxs a b c d)) by (unfold unit_fracP; lia).
  assert (F0 : unit_fracP 0 (rxs a b c d)) by (unfold unit_fracP; lia).
  split.
  - intros [H|[H|[H|[H|[H1 H2]]]]].
    + destruct H as [E _]. contradiction.
    + pose proof (proj1 H) as E. apply (Hd E) in H.
      replace (- cross a b c) with (rxs a b c d) by lia. split; assumption.
    + pose proof (proj1 H) as E. apply (Ha E) in H.
      rewrite E. split; assumption.
    + pose proof (proj1 H) as E. apply (Hb E) in H.
      replace (cross c d a) with (rxs a b c d) by lia. split; assumption.
    + apply (opp_unit_frac a b c d H1 H2).
  - intros [H1 H2].
    destruct (Z.eq_dec (cross a b d) 0) as [E|NB]; [right; left; apply (Hd E), H1|].
    destruct (Z.eq_dec (cross c d a) 0) as [E|NC]; [right; right; left; apply (Ha E), H2|].
    destruct (Z.eq_dec (cross c d b) 0) as [E|ND]; [right; right; right; left; apply (Hb E), H2|].
    right; right; right; right. clear Hd Ha Hb F0 F1. unfold opp, unit_fracP in *.
    destruct H1 as [[? ?]|[? ?]], H2 as [[? ?]|[? ?]]; lia.
Qed.

Theorem intersects_segment_iff (s o : seg) :
  intersects_segment s o = true <-> seg_meet s o.
Proof.
  destruct s as [a b], o as [c d].
  unfold intersects_segment, intersects_segment_gen.
  destruct (axis_disjoint (py a) (py b) (py c) (py d)) eqn:Ey.
  { apply axis_disjoint_iff in Ey. split; [discriminate|].
    intros H; exfalso. exact (seg_meet_overlap_y _ _ _ _ H Ey). }
  destruct (axis_disjoint (px a) (px b) (px c) (px d)) eqn:Ex.
  { apply axis_disjoint_iff in Ex. split; [discriminate|].
    intros H; exfalso. exact (seg_meet_overlap_x _ _ _ _ H Ex). }
  clear Ey Ex.
  destruct (pt_eqb a c || pt_eqb a d || pt_eqb b c || pt_eqb b d) eqn:Eeq.
  { split; [intros _|reflexivity].
    rewrite !orb_true_iff, !pt_eqb_eq in Eeq. rewrite seg_meet_unfold.
    destruct Eeq as [[[E|E]|E]|E]; subst.
    - left. apply on_seg_left.
    - right; left. apply on_seg_left.
    - left. apply on_seg_right.
    - right; left. apply on_seg_right. }
  clear Eeq.
  cbv zeta.
  rewrite !raycast_on_eq.
  assert (EC : (px c - px a) * (py d - py c) - (py c - py a) * (px d - px c)
               = cross c d a) by (unfold cross; ring).
  rewrite cmp_cross, EC. clear EC.
  change ((px b - px a) * (py d - py c) - (py b - py a) * (px d - px c))
    with (rxs a b c d).
  destruct (Z.eqb_spec (- cross a b c) 0) as [HA|HA].
  - (* c on the line a b *)
    assert (HA' : cross a b c = 0) by lia. clear HA.
    destruct (negb _) eqn:Eside.
    + (* c on the same side of a and b on both axes: the four endpoint tests *)
      cbn [andb]. rewrite !orb_true_iff, !on_segb_iff, seg_meet_unfold. unfold opp.
      split; [tauto | intros [Hm|[Hm|[Hm|[Hm|[Hm1 Hm2]]]]]; try tauto; exfalso; lia].
    + (* c between a and b on an axis where they differ *)
      split; [intros _|reflexivity]. rewrite seg_meet_unfold. left.
      apply collinear_in; [exact HA'|].
      rewrite negb_false_iff, orb_true_iff, !negb_true_iff, !eqb_false_iff in Eside.
      destruct Eside as [Es|Es]; [left|right]; exact (straddle_between _ _ _ Es).
  - assert (HA' : cross a b c <> 0) by lia. clear HA.
    destruct (Z.eqb_spec (rxs a b c d) 0) as [HR|HR].
    + split; [discriminate|]. intros H; exfalso.
      exact (parallel_no_meet a b c d HA' HR H).
    + rewrite (transversal_meet a b c d HA' HR).
      rewrite andb_true_iff, !unit_frac_iff. reflexivity.
Qed.

Theorem seg_meet_sym (s o : seg) : seg_meet s o <-> seg_meet o s.
Proof.
  destruct s as [a b], o as [c d]. rewrite !seg_meet_unfold. tauto.
Qed.

Theorem intersects_segment_sym (s o : seg) :
  intersects_segment s o = intersects_segment o s.
Proof.
  apply bool_eq_iff. rewrite !intersects_segment_iff. apply seg_meet_sym.
Qed.

Lemma orb_iff b c P Q : (b = true <-> P) -> (c = true <-> Q) -> (b || c = true <-> P \/ Q).
Proof. intros <- <-. apply orb_true_iff. Qed.

Lemma andb_iff b c P Q : (b = true <-> P) -> (c = true <-> Q) -> (b && c = true <-> P /\ Q).
Proof. intros <- <-. apply andb_true_iff. Qed.

Theorem seg_meetb_iff (s o : seg) : seg_meetb s o = true <-> seg_meet s o.
Proof.
  destruct s as [a b], o as [c d]. rewrite seg_meet_unfold, <- !or_assoc.
  unfold seg_meetb, opp.
  apply orb_iff; [apply orb_iff; [apply orb_iff; [apply orb_iff|]|]|]; try apply on_segb_iff.
  apply andb_iff; apply orb_iff; apply andb_iff; apply Z.ltb_lt.
Qed.

Lemma seg_meetb_intersects (e s : seg) : seg_meetb e s = intersects_segment s e.
Proof. apply bool_eq_iff. rewrite seg_meetb_iff, intersects_segment_iff. apply seg_meet_sym. Qed.

Theorem seg_contains_segment_iff (s o : seg) :
  seg_contains_segment s o = true <-> (on_seg s (fst o) /\ on_seg s (snd o)).
Proof.
  unfold seg_contains_segment. rewrite andb_true_iff, !raycast_on_iff. reflexivity.
Qed.

Theorem collinear_point_iff (s : seg) (p : pt) :
  collinear_point s p = true <-> cross (fst s) (snd s) p = 0.
Proof.
  destruct s as [a b]. unfold collinear_point. cbn [fst snd].
  rewrite Z.eqb_eq, cmp_cross. lia.
Qed.

(* the pinned code is asymmetric and misses a meeting (finding F1) *)

Theorem intersects_segment_pinned_refuted :
  exists s o, intersects_segment_pinned s o = false /\
              intersects_segment_pinned o s = true /\ seg_meet s o.
Proof.
  exists ((1, 0), (2, 0)), ((0, 0), (3, 0)).
  split; [vm_compute; reflexivity|].
  split; [vm_compute; reflexivity|].
  apply seg_meetb_iff. vm_compute. reflexivity.
Qed.

Lemma pinned_implies_fixed (s o : seg) :
  intersects_segment_pinned s o = true -> intersects_segment s o = true.
Proof.
  destruct s as [a b], o as [c d].
  unfold intersects_segment, intersects_segment_pinned, intersects_segment_gen.
  cbv zeta.
  repeat match goal with
  | |- context [if ?c then _ else _] => destruct c
  end; auto.
  cbn [andb]. rewrite orb_false_r. intros ->. reflexivity.
Qed.

(* the pinned code never reports a meeting that is not there ... *)
Theorem intersects_segment_pinned_sound (s o : seg) :
  intersects_segment_pinned s o = true -> seg_meet s o.
Proof. intros H. apply intersects_segment_iff, pinned_implies_fixed, H. Qed.

(* ... and every meeting it misses is the configuration of finding F1: c on
   the line a b, neither end of o on s, but an end of s on o *)
Theorem intersects_segment_pinned_miss (s o : seg) :
  intersects_segment_pinned s o = false -> seg_meet s o ->
  cross (fst s) (snd s) (fst o) = 0 /\
  ~ on_seg s (fst o) /\ ~ on_seg s (snd o) /\
  (on_seg o (fst s) \/ on_seg o (snd s)).
Proof.
  intros Hp Hm. apply intersects_segment_iff in Hm. revert Hp Hm.
  destruct s as [a b], o as [c d]. cbn [fst snd].
  unfold intersects_segment, intersects_segment_pinned, intersects_segment_gen.
  cbv zeta.
  rewrite cmp_cross.
  destruct (axis_disjoint (py a) (py b) (py c) (py d)); [discriminate|].
  destruct (axis_disjoint (px a) (px b) (px c) (px d)); [discriminate|].
  destruct (pt_eqb a c || pt_eqb a d || pt_eqb b c || pt_eqb b d); [discriminate|].
  destruct (Z.eqb_spec (- cross a b c) 0) as [HA|HA]; [|congruence].
  match goal with
  | |- context [if ?c then _ else _] => destruct c
  end; [|discriminate].
  rewrite !raycast_on_eq. cbn [andb]. rewrite orb_false_r.
  intros Hp. apply orb_false_iff in Hp. destruct Hp as [H1 H2].
  rewrite H1, H2. cbn [orb]. rewrite orb_true_iff, !on_segb_iff. intros Hm.
  rewrite <- !on_segb_iff, H1, H2.
  split; [lia|]. split; [discriminate|]. split; [discriminate|].
  rewrite !on_segb_iff. exact Hm.
Qed.

Print Assumptions intersects_segment_iff.
Print Assumptions seg_meet_sym.
Print Assumptions intersects_segment_sym.
Print Assumptions seg_meetb_iff.
Print Assumptions seg_contains_segment_iff.
Print Assumptions collinear_point_iff.
Print Assumptions intersects_segment_pinned_refuted.
Print Assumptions intersects_segment_pinned_sound.
Print Assumptions intersects_segment_pinned_miss.
