(* SphereMeet.v — property C13 over the reals: the converse of SphereTriangle.circles_meet_only_if_close.
   If the centre distance is at most the sum of the radii, the two discs share a location: a centre when
   one disc reaches the other's centre, otherwise the point of the great arc from A to B at distance rA
   from A (slerp of the unit vectors), turned back into a latitude / longitude.  The same arc point, taken
   beyond B, gives the converse of circle_contains_circle_sound (circle_contains_circle_complete). *)
From Coq Require Import Reals Lra.
From GJ Require Import Sphere SphereRect SphereTriangle.
Open Scope R_scope.

Lemma rad_deg (t : R) : rad (t * (180 / PI)) = t.
Proof. unfold rad. field. apply PI_neq0. Qed.

Lemma rad_lat_ok (d : R) : - (PI / 2) <= rad d <= PI / 2 -> lat_ok d.
Proof. unfold lat_ok, rad. pose proof PI_RGT_0. intros [H1 H2]. split; nra. Qed.

Lemma circle_point (u v : R) : u * u + v * v = 1 -> exists t, cos t = u /\ sin t = v.
Proof.
  intros U. assert (Hu : -1 <= u <= 1) by nra.
  assert (Sa : sin (acos u) = Rabs v).
  { rewrite sin_acos by exact Hu. replace (1 - u²) with (v²) by (unfold Rsqr; lra). apply sqrt_Rsqr_abs. }
  destruct (Rle_dec 0 v) as [Pv|Nv].
  - exists (acos u). rewrite Sa, cos_acos, Rabs_right by lra. split; reflexivity.
  - exists (- acos u). rewrite cos_neg, sin_neg, Sa, cos_acos, Rabs_left by lra. split; ring.
Qed.

(* every unit vector is the vector of a location: latitude asin z, and the longitude of (x, y) / cos lat *)
Lemma realize (x y z : R) : x * x + y * y + z * z = 1 ->
  exists lat lon, lat_ok lat /\ cos (rad lat) * cos (rad lon) = x /\ cos (rad lat) * sin (rad lon) = y /\ sin (rad lat) = z.
Proof.
  intros U. assert (Hz : -1 <= z <= 1) by nra.
  set (c := sqrt (x * x + y * y)).
  assert (Hcc : c * c = x * x + y * y) by (apply sqrt_sqrt; nra).
  assert (Cl : cos (asin z) = c) by (rewrite cos_asin by exact Hz; unfold c, Rsqr; f_equal; lra).
  assert (exists t, c * cos t = x /\ c * sin t = y) as (t & Ex & Ey).
  { destruct (Req_dec c 0) as [Z|NZ].
    - exists 0. rewrite Z in *. split; nra.
    - destruct (circle_point (x / c) (y / c)) as (t & Ec & Es).
      + replace (x / c * (x / c) + y / c * (y / c)) with ((x * x + y * y) / (c * c)) by (field; exact NZ).
        rewrite <- Hcc. field. exact NZ.
      + exists t. rewrite Ec, Es. split; field; exact NZ. }
  exists (asin z * (180 / PI)), (t * (180 / PI)). rewrite !rad_deg, Cl, sin_asin by exact Hz.
  split; [apply rad_lat_ok; rewrite rad_deg; apply asin_bound|]. repeat split; assumption.
Qed.

(* a unit vector orthogonal to a.  Not read off realize (the direction due east at a's location): asin and acos
   would put Classical_Prop.classic under frame and arc_point, which need only the axioms of the reals *)
Lemma perp (a1 a2 a3 : R) : a1 * a1 + a2 * a2 + a3 * a3 = 1 ->
  exists c1 c2 c3, c1 * c1 + c2 * c2 + c3 * c3 = 1 /\ a1 * c1 + a2 * c2 + a3 * c3 = 0.
Proof.
  intros U. destruct (Req_dec (a1 * a1 + a2 * a2) 0) as [Z|NZ].
  - exists 1, 0, 0. assert (a1 = 0) by nra. subst. split; lra.
  - set (m := sqrt (a1 * a1 + a2 * a2)).
    assert (Hm : m * m = a1 * a1 + a2 * a2) by (apply sqrt_sqrt; nra).
    assert (Hp : 0 < m) by (pose proof (sqrt_pos (a1 * a1 + a2 * a2)); fold m in H; destruct H as [H|H]; [exact H|nra]).
    exists (- a2 / m), (a1 / m), 0. split.
    + replace (- a2 / m * (- a2 / m) + a1 / m * (a1 / m) + 0 * 0) with ((a1 * a1 + a2 * a2) / (m * m)) by (field; lra).
      rewrite <- Hm. field. lra.
    + field. lra.
Qed.

Lemma sumsq0 (x y z : R) : x * x + y * y + z * z = 0 -> x = 0 /\ y = 0 /\ z = 0.
Proof.
  intros H. pose proof (Rle_0_sqr x) as A. pose proof (Rle_0_sqr y) as B. pose proof (Rle_0_sqr z) as C. unfold Rsqr in *.
  assert (x * x = 0) by lra. assert (y * y = 0) by lra. assert (z * z = 0) by lra.
  repeat split; apply Rsqr_0_uniq; unfold Rsqr; assumption.
Qed.

(* an orthonormal frame of the plane through a and b: d = b - (a.b) a is orthogonal to a and has length
   sin th; c is d scaled to a unit, or any unit vector orthogonal to a when d vanishes *)
Lemma frame (a1 a2 a3 b1 b2 b3 th : R) :
  a1 * a1 + a2 * a2 + a3 * a3 = 1 -> b1 * b1 + b2 * b2 + b3 * b3 = 1 ->
  a1 * b1 + a2 * b2 + a3 * b3 = cos th -> 0 <= sin th ->
  exists c1 c2 c3, c1 * c1 + c2 * c2 + c3 * c3 = 1 /\ a1 * c1 + a2 * c2 + a3 * c3 = 0 /\
    b1 = cos th * a1 + sin th * c1 /\ b2 = cos th * a2 + sin th * c2 /\ b3 = cos th * a3 + sin th * c3.
Proof.
  intros Ua Ub D Hs. pose proof (sqr_sin_cos th) as SC.
  set (d1 := b1 - cos th * a1). set (d2 := b2 - cos th * a2). set (d3 := b3 - cos th * a3).
  assert (Q : d1 * d1 + d2 * d2 + d3 * d3 = sin th * sin th).
  { replace (d1 * d1 + d2 * d2 + d3 * d3)
      with ((b1 * b1 + b2 * b2 + b3 * b3) - 2 * cos th * (a1 * b1 + a2 * b2 + a3 * b3) + cos th * cos th * (a1 * a1 + a2 * a2 + a3 * a3))
      by (unfold d1, d2, d3; ring).
    rewrite Ua, Ub, D. lra. }
  assert (O : a1 * d1 + a2 * d2 + a3 * d3 = 0).
  { replace (a1 * d1 + a2 * d2 + a3 * d3) with ((a1 * b1 + a2 * b2 + a3 * b3) - cos th * (a1 * a1 + a2 * a2 + a3 * a3))
      by (unfold d1, d2, d3; ring).
    rewrite Ua, D. ring. }
  destruct (Req_dec (sin th) 0) as [Z|NZ].
  - destruct (perp a1 a2 a3 Ua) as (c1 & c2 & c3 & Uc & Oc). exists c1, c2, c3. split; [exact Uc|]. split; [exact Oc|].
    rewrite Z, Rmult_0_l in Q. destruct (sumsq0 _ _ _ Q) as (Q1 & Q2 & Q3).
    rewrite Z. unfold d1, d2, d3 in Q1, Q2, Q3. repeat split; lra.
  - exists (d1 / sin th), (d2 / sin th), (d3 / sin th). split; [|split; [|unfold d1, d2, d3; repeat split; field; exact NZ]].
    + replace (d1 / sin th * (d1 / sin th) + d2 / sin th * (d2 / sin th) + d3 / sin th * (d3 / sin th))
        with ((d1 * d1 + d2 * d2 + d3 * d3) / (sin th * sin th)) by (field; exact NZ).
      rewrite Q. field. exact NZ.
    + replace (a1 * (d1 / sin th) + a2 * (d2 / sin th) + a3 * (d3 / sin th)) with ((a1 * d1 + a2 * d2 + a3 * d3) / sin th)
        by (field; exact NZ).
      rewrite O. field. exact NZ.
Qed.

(* the dot product of two combinations of a and c, by the dot products of a and c *)
Lemma dot_comb (p q r t a1 a2 a3 c1 c2 c3 : R) :
  (p * a1 + q * c1) * (r * a1 + t * c1) + (p * a2 + q * c2) * (r * a2 + t * c2) + (p * a3 + q * c3) * (r * a3 + t * c3) =
  p * r * (a1 * a1 + a2 * a2 + a3 * a3) + (p * t + q * r) * (a1 * c1 + a2 * c2 + a3 * c3) + q * t * (c1 * c1 + c2 * c2 + c3 * c3).
Proof. ring. Qed.

Lemma dot_comb_l (r t a1 a2 a3 c1 c2 c3 : R) :
  a1 * (r * a1 + t * c1) + a2 * (r * a2 + t * c2) + a3 * (r * a3 + t * c3) =
  r * (a1 * a1 + a2 * a2 + a3 * a3) + t * (a1 * c1 + a2 * c2 + a3 * c3).
Proof. ring. Qed.

(* the point of the arc at angle al from a: cos al a + sin al c in the frame (a, c) *)
Lemma arc_point (a1 a2 a3 b1 b2 b3 th al : R) :
  a1 * a1 + a2 * a2 + a3 * a3 = 1 -> b1 * b1 + b2 * b2 + b3 * b3 = 1 ->
  a1 * b1 + a2 * b2 + a3 * b3 = cos th -> 0 <= sin th ->
  exists p1 p2 p3, p1 * p1 + p2 * p2 + p3 * p3 = 1 /\ a1 * p1 + a2 * p2 + a3 * p3 = cos al /\
    p1 * b1 + p2 * b2 + p3 * b3 = cos (th - al).
Proof.
  intros Ua Ub D Hs. destruct (frame _ _ _ _ _ _ th Ua Ub D Hs) as (c1 & c2 & c3 & Uc & Oc & E1 & E2 & E3).
  pose proof (sqr_sin_cos al) as SC.
  exists (cos al * a1 + sin al * c1), (cos al * a2 + sin al * c2), (cos al * a3 + sin al * c3). split; [|split].
  - rewrite dot_comb, Ua, Oc, Uc. lra.
  - rewrite dot_comb_l, Ua, Oc. ring.
  - rewrite E1, E2, E3, dot_comb, Ua, Oc, Uc, cos_minus. ring.
Qed.

Lemma angle_of_cos (a b c d al : R) : lat_ok a -> lat_ok c -> 0 <= al <= PI ->
  sdot a b c d = cos al -> distance_to a b c d = al * Rearth.
Proof.
  intros Ha Hc Hal E. rewrite distance_angle. f_equal.
  rewrite <- (acos_cos (angle a b c d)) by (apply angle_range; assumption).
  rewrite cos_angle, E by assumption. apply acos_cos. exact Hal.
Qed.

(* the location at distance m from A on the great circle through A and B, leaving A towards B *)
Lemma arc_location (latA lonA latB lonB m : R) : lat_ok latA -> lat_ok latB -> 0 <= m <= piR ->
  exists plat plon, lat_ok plat /\ distance_to latA lonA plat plon = m /\
    distance_to plat plon latB lonB = Rabs (distance_to latA lonA latB lonB - m).
Proof.
  intros Ha Hb Hm. pose proof Rearth_pos as HR. pose proof PI_RGT_0 as Hpi.
  pose proof (angle_range latA lonA latB lonB Ha Hb) as Rth. pose proof (cos_angle latA lonA latB lonB Ha Hb) as Cth.
  rewrite (distance_angle latA lonA latB lonB). set (th := angle latA lonA latB lonB) in *.
  set (al := m / Rearth). assert (Em : m = al * Rearth) by (unfold al, Rearth; lra).
  assert (Hal : 0 <= al <= PI) by (unfold piR in Hm; rewrite Em in Hm; split; apply Rmult_le_reg_r with Rearth; lra).
  rewrite sdot_as_vectors in Cth.
  destruct (arc_point _ _ _ _ _ _ th al (unit_vector latA lonA) (unit_vector latB lonB) (eq_sym Cth))
    as (p1 & p2 & p3 & Up & Ap & Pb); [apply sin_ge_0; lra|].
  destruct (realize p1 p2 p3 Up) as (plat & plon & Hp & E1 & E2 & E3).
  exists plat, plon. split; [exact Hp|]. rewrite Em. split.
  - apply angle_of_cos; [exact Ha|exact Hp|exact Hal|]. rewrite sdot_as_vectors, E1, E2, E3. exact Ap.
  - rewrite <- Rmult_minus_distr_r, Rabs_mult, (Rabs_right Rearth) by lra.
    apply angle_of_cos; [exact Hp|exact Hb|split; [apply Rabs_pos|apply Rabs_le; lra]|].
    rewrite sdot_as_vectors, E1, E2, E3, Pb.
    unfold Rabs. destruct (Rcase_abs (th - al)); [rewrite cos_neg|]; reflexivity.
Qed.

(* if the centre distance is at most the sum of the radii, the discs share a location *)
Theorem circles_meet_if_close (latA lonA rA latB lonB rB : R) :
  lat_ok latA -> lat_ok latB -> 0 <= rA <= piR -> 0 <= rB <= piR ->
  distance_to latA lonA latB lonB <= rA + rB ->
  exists plat plon, lat_ok plat /\ circle_contains_point latA lonA rA plat plon /\ circle_contains_point latB lonB rB plat plon.
Proof.
  intros Ha Hb HrA HrB Hd.
  set (D := distance_to latA lonA latB lonB) in *.
  destruct (Rle_dec D rA) as [L1|G1].
  { exists latB, lonB. split; [exact Hb|]. split.
    - apply (circle_contains_point_spec latA lonA rA latB lonB Ha Hb HrA). rewrite distance_sym. exact L1.
    - apply (circle_contains_point_spec latB lonB rB latB lonB Hb Hb HrB). rewrite distance_refl. lra. }
  destruct (Rle_dec D rB) as [L2|G2].
  { exists latA, lonA. split; [exact Ha|]. split.
    - apply (circle_contains_point_spec latA lonA rA latA lonA Ha Ha HrA). rewrite distance_refl. lra.
    - apply (circle_contains_point_spec latB lonB rB latA lonA Hb Ha HrB). exact L2. }
  (* neither disc reaches the other's centre: walk rA along the arc from A to B *)
  destruct (arc_location latA lonA latB lonB rA Ha Hb HrA) as (plat & plon & Hp & DA & DB). fold D in DB.
  exists plat, plon. split; [exact Hp|]. split.
  - apply (circle_contains_point_spec latA lonA rA plat plon Ha Hp HrA). rewrite distance_sym, DA. lra.
  - apply (circle_contains_point_spec latB lonB rB plat plon Hb Hp HrB). rewrite DB, Rabs_right; lra.
Qed.

(* both directions: Circle.Intersects(Circle) = "centre distance <= sum of radii" is exact as point sets *)
Theorem circles_meet_iff (latA lonA rA latB lonB rB : R) :
  lat_ok latA -> lat_ok latB -> 0 <= rA <= piR -> 0 <= rB <= piR ->
  (distance_to latA lonA latB lonB <= rA + rB <->
   exists plat plon, lat_ok plat /\ circle_contains_point latA lonA rA plat plon /\ circle_contains_point latB lonB rB plat plon).
Proof.
  intros Ha Hb HrA HrB. split; [apply circles_meet_if_close; assumption|].
  intros (plat & plon & Hp & HA & HB). apply (circles_meet_only_if_close latA lonA rA latB lonB rB plat plon); assumption.
Qed.

(* the converse of SphereTriangle.circle_contains_circle_sound: if every location of B is within A then
   centre distance + radius of B <= radius of A (the far point of B on the great circle through the centres
   is at exactly that distance from A, as long as it does not pass the antipode of A) *)
Theorem circle_contains_circle_complete (latA lonA rA latB lonB rB : R) :
  lat_ok latA -> lat_ok latB -> 0 <= rA <= piR -> 0 <= rB <= piR ->
  distance_to latA lonA latB lonB + rB <= piR ->
  (forall plat plon, lat_ok plat -> circle_contains_point latB lonB rB plat plon -> circle_contains_point latA lonA rA plat plon) ->
  distance_to latA lonA latB lonB + rB <= rA.
Proof.
  intros Ha Hb HrA HrB Hfar Hall.
  set (D := distance_to latA lonA latB lonB) in *.
  pose proof (distance_range latA lonA latB lonB Ha Hb) as [D0 _]. fold D in D0.
  (* walk past B by rB: that location is in B, hence in A *)
  destruct (arc_location latA lonA latB lonB (D + rB) Ha Hb) as (plat & plon & Hp & DA & DB); [lra|]. fold D in DB.
  replace (D - (D + rB)) with (- rB) in DB by ring. rewrite Rabs_Ropp, Rabs_right in DB by lra.
  assert (InA : circle_contains_point latA lonA rA plat plon).
  { apply (Hall plat plon Hp). apply (circle_contains_point_spec latB lonB rB plat plon Hb Hp HrB). rewrite DB. lra. }
  apply (circle_contains_point_spec latA lonA rA plat plon Ha Hp HrA) in InA. rewrite distance_sym, DA in InA. exact InA.
Qed.

Print Assumptions circles_meet_iff.
Print Assumptions circle_contains_circle_complete.
