(* ByteCodec.v — what the two index codecs share.  [at_addr data a s]: the byte
   string s sits in the buffer at absolute address a.  For each reader of
   Index.v there is one "step" lemma: if the encoding of a value sits at the
   cursor, followed by [rest], then the reader returns the value and [rest]
   sits at the advanced cursor.  A decoder proof is a chain of such steps. *)
From GJ Require Import Base Index.
Local Open Scope Z_scope.

Definition at_addr (data : list Z) (a : Z) (s : list Z) : Prop :=
  exists pre post, data = pre ++ s ++ post /\ a = Z.of_nat (length pre).

Lemma at_addr_intro pre s post : at_addr (pre ++ s ++ post) (Z.of_nat (length pre)) s.
Proof. exists pre, post. auto. Qed.

Lemma at_addr_eq data a a' s : at_addr data a s -> a = a' -> at_addr data a' s.
Proof. intros H <-. exact H. Qed.

Lemma at_addr_here pre s : at_addr (pre ++ s) (Z.of_nat (length pre)) s.
Proof. exists pre, []. rewrite app_nil_r. auto. Qed.

Lemma at_app data a x y :
  at_addr data a (x ++ y) -> at_addr data a x /\ at_addr data (a + Z.of_nat (length x)) y.
Proof.
  intros (pre & post & -> & ->). split.
  - exists pre, (y ++ post). rewrite <- app_assoc. auto.
  - exists (pre ++ x), post. rewrite <- !app_assoc, app_length, Nat2Z.inj_add. auto.
Qed.

Lemma at_skip data a x y n :
  Z.of_nat (length x) = n -> at_addr data a (x ++ y) -> at_addr data (a + n) y.
Proof. intros <- H. apply (at_app _ _ _ _ H). Qed.

Lemma at_bounds data a s :
  at_addr data a s -> 0 <= a /\ a + Z.of_nat (length s) <= Z.of_nat (length data).
Proof.
  intros (pre & post & -> & ->). rewrite !app_length, !Nat2Z.inj_add. lia.
Qed.

(* in a buffer shorter than 2^32 every address is its own u32 *)
Lemma addr_in_u32 data a s :
  at_addr data a s -> Z.of_nat (length data) < 2 ^ 32 -> 0 <= a < 2 ^ 32.
Proof. intros H Hl. apply at_bounds in H. lia. Qed.

Lemma byte_at_nat data k : byte_at data (Z.of_nat k) = nth_error data k.
Proof.
  unfold byte_at. destruct (Z.ltb_spec (Z.of_nat k) 0); [lia|].
  rewrite Nat2Z.id. reflexivity.
Qed.

Lemma byte_step data a b rest :
  at_addr data a (b :: rest) -> byte_at data a = Some b /\ at_addr data (a + 1) rest.
Proof.
  intros H. split; [|apply (at_skip data a [b] rest 1 eq_refl H)].
  destruct H as (pre & post & -> & ->).
  rewrite byte_at_nat, nth_error_app2, Nat.sub_diag by lia. reflexivity.
Qed.

Lemma le_bytes_length k n : length (le_bytes k n) = k.
Proof. unfold le_bytes. rewrite map_length, seq_length. reflexivity. Qed.

(* setCompressed puts five bytes in front of the payload *)
Lemma set_compressed_at kind payload : at_addr (set_compressed kind payload) 5 payload.
Proof.
  exists ([kind] ++ le_bytes 4 (u32 (5 + Z.of_nat (length payload)))), []. split.
  - unfold set_compressed. rewrite app_nil_r, <- app_assoc. reflexivity.
  - rewrite app_length, le_bytes_length. reflexivity.
Qed.

Lemma pow2_8S i : 2 ^ (8 * Z.of_nat (S i)) = 256 * 2 ^ (8 * Z.of_nat i).
Proof.
  replace (8 * Z.of_nat (S i)) with (8 + 8 * Z.of_nat i) by lia.
  rewrite Z.pow_add_r by lia. reflexivity.
Qed.

Lemma le_bytes_S k n : le_bytes (S k) n = n mod 256 :: le_bytes k (n / 256).
Proof.
  unfold le_bytes. rewrite <- cons_seq, <- seq_shift. cbn [map]. rewrite map_map.
  f_equal.
  - change (8 * Z.of_nat 0) with 0. rewrite Z.pow_0_r, Z.div_1_r. reflexivity.
  - apply map_ext. intros i. rewrite pow2_8S.
    rewrite Z.div_div; [reflexivity | lia | ].
    apply Z.pow_pos_nonneg; lia.
Qed.

Lemma le_step k : forall data a n rest,
  0 <= n < 2 ^ (8 * Z.of_nat k) -> at_addr data a (le_bytes k n ++ rest) ->
  read_le data a k = Some n /\ at_addr data (a + Z.of_nat k) rest.
Proof.
  induction k as [|k IH]; intros data a n rest Hn Hat.
  - change (2 ^ (8 * Z.of_nat 0)) with 1 in Hn. rewrite Z.add_0_r.
    split; [cbn [read_le]; f_equal; lia|exact Hat].
  - rewrite le_bytes_S in Hat. apply byte_step in Hat. destruct Hat as [Hb Hat].
    rewrite pow2_8S in Hn.
    destruct (IH data (a + 1) (n / 256) rest) as [Hr Hat'];
      [split; [apply Z.div_pos|apply Z.div_lt_upper_bound]; lia|exact Hat|].
    cbn [read_le]. rewrite Hb, Hr, Nat2Z.inj_succ, <- Z.add_1_l, Z.add_assoc.
    split; [f_equal; pose proof (Z.div_mod n 256); lia|exact Hat'].
Qed.

(* a child address, as written by the encoders *)
Lemma u32_step data a c rest :
  0 <= c < 2 ^ 32 -> at_addr data a (le_bytes 4 (u32 c) ++ rest) ->
  read_le data a 4 = Some c /\ at_addr data (a + 4) rest.
Proof.
  intros Hc Hat. unfold u32 in Hat. rewrite Z.mod_small in Hat by exact Hc.
  apply (le_step 4 data a c rest Hc Hat).
Qed.

Definition nbytes_ok (ib : Z) : Prop := ib = 1 \/ ib = 2 \/ ib = 4.

Lemma width_ok ib : nbytes_ok ib -> width ib = ib.
Proof. intros [->|[->| ->]]; reflexivity. Qed.

Lemma num_bytes_ok n : nbytes_ok (num_bytes n).
Proof.
  unfold num_bytes, nbytes_ok.
  destruct (n <=? 255); auto. destruct (n <=? 65535); auto.
Qed.

Lemma fits_le n ib :
  0 <= n < 2 ^ 32 -> nbytes_ok ib -> num_bytes n <= ib -> n < 2 ^ (8 * ib).
Proof.
  intros [H0 H1] Hib Hle. change (2 ^ 32) with 4294967296 in H1.
  unfold num_bytes in Hle.
  destruct (Z.leb_spec n 255); destruct (Z.leb_spec n 65535);
    destruct Hib as [->|[->| ->]];
    try change (2 ^ (8 * 1)) with 256; try change (2 ^ (8 * 2)) with 65536;
    try change (2 ^ (8 * 4)) with 4294967296; lia.
Qed.

Lemma enc_num_le n ib : nbytes_ok ib -> enc_num n ib = le_bytes (Z.to_nat ib) n.
Proof. intros [->|[->| ->]]; reflexivity. Qed.

Lemma enc_num_length n ib : nbytes_ok ib -> Z.of_nat (length (enc_num n ib)) = ib.
Proof.
  intros H. rewrite enc_num_le, le_bytes_length by assumption.
  unfold nbytes_ok in H. lia.
Qed.

Lemma num_step data a n ib rest :
  nbytes_ok ib -> 0 <= n < 2 ^ (8 * ib) -> at_addr data a (enc_num n ib ++ rest) ->
  read_num data a ib = Some n /\ at_addr data (a + ib) rest.
Proof.
  intros Hib Hn Hat. unfold read_num. rewrite width_ok by assumption.
  rewrite enc_num_le in Hat by assumption.
  assert (Hk : Z.of_nat (Z.to_nat ib) = ib) by (unfold nbytes_ok in Hib; lia).
  rewrite <- Hk in Hn. rewrite <- Hk at 2. apply le_step; assumption.
Qed.

(* the common width of a list of items: the largest num_bytes, from a0 on *)
Definition maxfold (l : list Z) (a0 : Z) : Z :=
  fold_left (fun acc it => Z.max acc (num_bytes it)) l a0.

Lemma maxfold_ok l : forall a0, nbytes_ok a0 -> nbytes_ok (maxfold l a0).
Proof.
  unfold maxfold. induction l as [|x l IH]; intros a0 H0; cbn [fold_left]; auto.
  apply IH. pose proof (num_bytes_ok x) as Hx. unfold nbytes_ok in *. lia.
Qed.

Lemma maxfold_ge_init l : forall a0, a0 <= maxfold l a0.
Proof.
  unfold maxfold. induction l as [|x l IH]; intros a0; cbn [fold_left]; [lia|].
  specialize (IH (Z.max a0 (num_bytes x))). lia.
Qed.

Lemma maxfold_ge_elem l : forall a0 x, In x l -> num_bytes x <= maxfold l a0.
Proof.
  induction l as [|y l IH]; intros a0 x Hin; [destruct Hin|].
  unfold maxfold. cbn [fold_left]. fold (maxfold l (Z.max a0 (num_bytes y))).
  destruct Hin as [->|Hin].
  - pose proof (maxfold_ge_init l (Z.max a0 (num_bytes x))). lia.
  - apply IH; assumption.
Qed.

Lemma maxfold_map {A} (g : A -> Z) l : forall a0,
  fold_left (fun acc c => Z.max acc (num_bytes (g c))) l a0 = maxfold (map g l) a0.
Proof. induction l as [|c l IH]; intros a0; [reflexivity|]. apply IH. Qed.

Lemma maxfold_fits l a0 :
  nbytes_ok a0 -> Forall (fun x => 0 <= x < 2 ^ 32) l ->
  Forall (fun x => 0 <= x < 2 ^ (8 * maxfold l a0)) l.
Proof.
  intros H0 Hall. rewrite Forall_forall in *. intros x Hx. specialize (Hall x Hx).
  split; [lia|]. apply fits_le; [exact Hall|apply maxfold_ok, H0|apply maxfold_ge_elem, Hx].
Qed.

Definition enc_items (ib : Z) (items : list Z) : list Z :=
  flat_map (fun it => enc_num it ib) items.

Lemma enc_items_map {A} (g : A -> Z) ib l :
  flat_map (fun c => enc_num (g c) ib) l = enc_items ib (map g l).
Proof. unfold enc_items. induction l as [|c l IH]; cbn [flat_map map]; congruence. Qed.

Lemma enc_items_length ib items :
  nbytes_ok ib -> Z.of_nat (length (enc_items ib items)) = Z.of_nat (length items) * ib.
Proof.
  intros Hib. induction items as [|x l IH]; [reflexivity|].
  unfold enc_items in *. cbn [flat_map length].
  rewrite app_length, Nat2Z.inj_add, IH, enc_num_length by assumption.
  rewrite Nat2Z.inj_succ. lia.
Qed.

Lemma items_step ib items : forall data a rest,
  nbytes_ok ib -> Forall (fun x => 0 <= x < 2 ^ (8 * ib)) items ->
  at_addr data a (enc_items ib items ++ rest) ->
  read_items data a ib (length items) = Some items /\
  at_addr data (a + Z.of_nat (length items) * ib) rest.
Proof.
  induction items as [|x l IH]; intros data a rest Hib Hall Hat.
  - rewrite Z.add_0_r. split; [reflexivity|exact Hat].
  - inversion Hall as [|? ? Hx Hl]; subst.
    unfold enc_items in Hat. cbn [flat_map] in Hat. rewrite <- app_assoc in Hat.
    destruct (num_step _ _ _ _ _ Hib Hx Hat) as [Hn Hat'].
    destruct (IH data (a + ib) rest Hib Hl Hat') as [Hr Hat''].
    cbn [length read_items]. rewrite Hn, Hr. split; [reflexivity|].
    replace (a + Z.of_nat (S (length l)) * ib) with (a + ib + Z.of_nat (length l) * ib) by lia.
    exact Hat''.
Qed.

(* Both encoders fold over a node's children with a state (table, bodies,
   next address): a child placed at address a adds [entry c a] to the table and
   its encoding [body c a] to the bodies.  The result of the fold, explicitly. *)
Section Layout.
  Variable A : Type.
  Variables entry body : A -> Z -> list Z.

  Fixpoint lay_tbl (a : Z) (ks : list A) : list Z :=
    match ks with
    | [] => []
    | c :: ks' => entry c a ++ lay_tbl (a + Z.of_nat (length (body c a))) ks'
    end.

  Fixpoint lay_bodies (a : Z) (ks : list A) : list Z :=
    match ks with
    | [] => []
    | c :: ks' => body c a ++ lay_bodies (a + Z.of_nat (length (body c a))) ks'
    end.

  Variable step : list Z * list Z * Z -> A -> list Z * list Z * Z.
  Hypothesis step_eq : forall T B a c,
    step (T, B, a) c = (T ++ entry c a, B ++ body c a, a + Z.of_nat (length (body c a))).

  Lemma lay_fold : forall ks T B a,
    exists fin, fold_left step ks (T, B, a) = (T ++ lay_tbl a ks, B ++ lay_bodies a ks, fin).
  Proof.
    induction ks as [|c ks IH]; intros T B a; cbn [fold_left lay_tbl lay_bodies].
    - exists a. rewrite !app_nil_r. reflexivity.
    - rewrite step_eq. destruct (IH (T ++ entry c a) (B ++ body c a)
                                   (a + Z.of_nat (length (body c a)))) as [fin E].
      exists fin. rewrite E, <- !app_assoc. reflexivity.
  Qed.
End Layout.
