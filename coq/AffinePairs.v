(* AffinePairs.v — property C12, translation and positive scaling, at the level of
   the model of ring.go / poly.go / line.go / rect.go / point.go: every pair
   predicate (contains, intersects; all sixteen receiver x argument pairs, every
   decision site of ringContainsSegment included) gives the same answer on
   p |-> (k*x+dx, k*y+dy), k > 0, applied to both operands.  Since the model is
   the code on every case of the correspondence, known findings included, this
   is the translation / power-of-two-scaling clause of C12 for the code as it is.
   The map is carried through the prepared data as functions (rng_aff, poly_aff,
   gshape_aff); process_points_aff and RS_rel say that preparing the image of a
   series gives the image of the prepared ring (convexity and winding flags kept). *)
From GJ Require Import Base Kernel Series SeriesSpec SeriesProofs Ring PipProofs PairSpec Pairs Invariance.
Open Scope Z_scope.

Section Affine.
Variables k dx dy : Z.
Hypothesis kpos : 0 < k.

Notation aff := (aff k dx dy).
Notation affs := (affs k dx dy).
Definition affr (r : rect) : rect := (aff (fst r), aff (snd r)).
Definition affsi (si : seg * nat) : seg * nat := (affs (fst si), snd si).

Lemma seg_rect_aff (s : seg) : seg_rect (affs s) = affr (seg_rect s).
Proof.
  destruct s as [[ax ay] [bx by_]]. unfold seg_rect, affr, Invariance.affs, Invariance.aff, px, py. cbn [fst snd].
  rewrite !(aff_min k kpos), !(aff_max k kpos). reflexivity.
Qed.

Lemma rir_aff (a b : rect) : rect_intersects_rect (affr a) (affr b) = rect_intersects_rect a b.
Proof.
  destruct a as [[a1 a2] [a3 a4]], b as [[b1 b2] [b3 b4]].
  unfold rect_intersects_rect, affr, Invariance.aff, px, py. cbn [fst snd].
  rewrite !(aff_ltb k kpos). reflexivity.
Qed.

Lemma rcr_aff (a b : rect) : rect_contains_rect (affr a) (affr b) = rect_contains_rect a b.
Proof.
  destruct a as [[a1 a2] [a3 a4]], b as [[b1 b2] [b3 b4]].
  unfold rect_contains_rect, affr, Invariance.aff, px, py. cbn [fst snd].
  rewrite !(aff_ltb k kpos). reflexivity.
Qed.

Lemma rcp_aff (r : rect) (p : pt) : rect_contains_point (affr r) (aff p) = rect_contains_point r p.
Proof. apply (rect_contains_point_aff k dx dy kpos). Qed.

Lemma rect_eqb_aff (a b : rect) : rect_eqb (affr a) (affr b) = rect_eqb a b.
Proof. unfold rect_eqb, affr. cbn [fst snd]. rewrite !(pt_eqb_aff k dx dy kpos). reflexivity. Qed.

Lemma rect_area_aff (r : rect) : rect_area (affr r) = k * k * rect_area r.
Proof. destruct r as [[a1 a2] [a3 a4]]. unfold rect_area, affr, Invariance.aff, px, py. cbn [fst snd]. ring. Qed.

Lemma ltb_scale (u v : Z) : (k * k * u <? k * k * v) = (u <? v).
Proof. apply Bool.eq_true_iff_eq. rewrite !Z.ltb_lt. nia. Qed.
Lemma leb_scale (u v : Z) : (k * k * u <=? k * k * v) = (u <=? v).
Proof. apply Bool.eq_true_iff_eq. rewrite !Z.leb_le. nia. Qed.

Lemma filter_map_comm {A B} (p : B -> bool) (f : A -> B) (l : list A) : filter p (map f l) = map f (filter (fun x => p (f x)) l).
Proof. induction l as [|x l IH]; [reflexivity|]. cbn [map filter]. destruct (p (f x)); cbn [map]; rewrite IH; reflexivity. Qed.

Lemma combine_map_l {A B C} (f : A -> B) (l : list A) (m : list C) : combine (map f l) m = map (fun x => (f (fst x), snd x)) (combine l m).
Proof. revert m. induction l as [|x l IH]; intros [|y m]; cbn [map combine]; try reflexivity. rewrite IH. reflexivity. Qed.

Lemma indexed_map (l : list seg) : indexed (map affs l) = map affsi (indexed l).
Proof. unfold indexed. rewrite map_length, combine_map_l. reflexivity. Qed.

Definition rng_aff (r : rng) : rng :=
  {| r_pts := map aff (r_pts r); r_segs := map affs (r_segs r); r_rect := affr (r_rect r);
     r_convex := r_convex r; r_cw := r_cw r; r_empty := r_empty r |}.

Lemma rel_search (r : rng) (q : rect) : ring_search (rng_aff r) (affr q) = map affsi (ring_search r q).
Proof.
  unfold ring_search, ring_segments. cbn [rng_aff r_segs]. rewrite indexed_map, filter_map_comm.
  f_equal. apply filter_ext. intros si. unfold affsi. cbn [fst]. rewrite seg_rect_aff, rir_aff. reflexivity.
Qed.

Lemma rel_strip (r : rng) (y : Z) : strip_search (rng_aff r) (k * y + dy) = map affsi (strip_search r y).
Proof.
  unfold strip_search, ring_segments. cbn [rng_aff r_segs]. rewrite indexed_map, filter_map_comm.
  f_equal. apply filter_ext. intros si. unfold affsi. cbn [fst]. rewrite seg_rect_aff.
  destruct (seg_rect (fst si)) as [[a1 a2] [a3 a4]]. unfold affr, Invariance.aff, px, py. cbn [fst snd].
  rewrite !(aff_ltb k kpos). reflexivity.
Qed.

Lemma pip_fold_aff (allow : bool) (p : pt) (l : list (seg * nat)) : forall inn,
  pip_fold allow (aff p) (map affsi l) inn = pip_fold allow p l inn.
Proof.
  induction l as [|[sg i] l IH]; intros inn; [reflexivity|]. cbn [map pip_fold affsi fst snd].
  rewrite (raycast_aff k dx dy kpos). destruct (raycast sg p) as [i_ o_]. destruct o_; [reflexivity|apply IH].
Qed.

Lemma rel_rcp (r : rng) (p : pt) (allow : bool) :
  ring_contains_point (rng_aff r) (aff p) allow = ring_contains_point r p allow.
Proof.
  unfold ring_contains_point, ring_rect. cbn [rng_aff r_rect]. rewrite rcp_aff.
  destruct (negb (rect_contains_point (r_rect r) p)); [reflexivity|].
  change (py (aff p)) with (k * py p + dy). rewrite rel_strip. apply pip_fold_aff.
Qed.

Lemma rel_rcp_hit (r : rng) (p : pt) (allow : bool) : rcp_hit (rng_aff r) (aff p) allow = rcp_hit r p allow.
Proof. unfold rcp_hit. rewrite rel_rcp. reflexivity. Qed.

Lemma fst_affs (s : seg) : fst (affs s) = aff (fst s). Proof. reflexivity. Qed.
Lemma snd_affs (s : seg) : snd (affs s) = aff (snd s). Proof. reflexivity. Qed.

Lemma raycast_on_aff (s : seg) (p : pt) : raycast_on (affs s) (aff p) = raycast_on s p.
Proof. unfold raycast_on. rewrite (raycast_aff k dx dy kpos). reflexivity. Qed.

Lemma quad_cw_aff (sa sb : seg) : quad_cw (affs sa) (affs sb) = quad_cw sa sb.
Proof.
  destruct sa as [[x1 y1] [x2 y2]], sb as [[x3 y3] [x4 y4]].
  unfold quad_cw, Invariance.affs, Invariance.aff, px, py. cbn [fst snd].
  match goal with |- (0 <? ?A) = (0 <? ?B) => replace A with (k * k * B) by ring end. apply (sq_pos_ltb k kpos).
Qed.

Lemma nth_map_in {A B} (f : A -> B) (l : list A) (n : nat) (d : A) (d' : B) : (n < length l)%nat -> nth n (map f l) d' = f (nth n l d).
Proof. revert n. induction l as [|x l IH]; intros [|n] H; cbn [length] in H; try lia; cbn [map nth]; [reflexivity|apply IH; lia]. Qed.

Lemma rel_nth_seg (r : rng) (i : Z) : 0 <= i < Z.of_nat (length (ring_segments r)) ->
  nth_seg (rng_aff r) i = affs (nth_seg r i).
Proof. intros Hi. unfold nth_seg, ring_segments in *. cbn [rng_aff r_segs]. apply nth_map_in. lia. Qed.

(* the edge index reported by the point search is -1 or a segment index *)
Lemma pip_fold_idx (allow : bool) (p : pt) (n : nat) : forall (l : list (seg * nat)) (inn : bool),
  (forall si, In si l -> (snd si < n)%nat) ->
  snd (pip_fold allow p l inn) = -1 \/ 0 <= snd (pip_fold allow p l inn) < Z.of_nat n.
Proof.
  induction l as [|[sg i] l IH]; intros inn H; [left; reflexivity|]. cbn [pip_fold].
  destruct (raycast sg p) as [i_ o_]. destruct o_.
  - right. cbn [snd]. specialize (H (sg, i) (or_introl eq_refl)). cbn [snd] in H. lia.
  - apply IH. intros si Hsi. apply H. right. exact Hsi.
Qed.

Lemma rcp_idx (r : rng) (p : pt) (allow : bool) :
  snd (ring_contains_point r p allow) = -1 \/ 0 <= snd (ring_contains_point r p allow) < Z.of_nat (length (ring_segments r)).
Proof.
  unfold ring_contains_point. destruct (negb _); [left; reflexivity|].
  apply pip_fold_idx. intros si Hsi. unfold strip_search in Hsi. apply filter_In in Hsi. destruct Hsi as [Hsi _].
  unfold indexed in Hsi. destruct si as [s0 i0]. apply in_combine_r in Hsi. apply in_seq in Hsi. cbn [snd]. lia.
Qed.

Lemma hit_aff (sg : seg) (g g' : seg * nat -> bool) (cands : list (seg * nat)) : (forall si, g' (affsi si) = g si) ->
  existsb (fun si => intersects_segment (affs sg) (fst si) && g' si) (map affsi cands)
  = existsb (fun si => intersects_segment sg (fst si) && g si) cands.
Proof.
  intros Hf. apply existsb_map_ext. intros si. rewrite Hf. unfold affsi. cbn [fst].
  rewrite (intersects_segment_aff k dx dy kpos). reflexivity.
Qed.

Theorem rel_rcs (r : rng) (sg : seg) (allow : bool) :
  ring_contains_segment (rng_aff r) (affs sg) allow = ring_contains_segment r sg allow.
Proof.
  destruct sg as [a b]. unfold ring_contains_segment. change (affs (a, b)) with (aff a, aff b). cbv zeta.
  unfold ring_rect, ring_convex, ring_clockwise. cbn [rng_aff r_rect r_convex r_cw].
  rewrite !rcp_aff, !rel_rcp, (pt_eqb_aff k dx dy kpos).
  change (seg_rect (aff a, aff b)) with (seg_rect (affs (a, b))). rewrite seg_rect_aff, rel_search.
  destruct (negb (rect_contains_point (r_rect r) a) || negb (rect_contains_point (r_rect r) b)); [reflexivity|].
  destruct (ring_contains_point r a allow) as [hitA idxA] eqn:EA. cbn [fst snd].
  destruct (negb hitA); [reflexivity|]. destruct (pt_eqb b a); [reflexivity|].
  destruct (ring_contains_point r b allow) as [hitB idxB] eqn:EB. cbn [fst snd].
  destruct (negb hitB); [reflexivity|]. destruct (r_convex r); [reflexivity|].
  set (cands := ring_search r (seg_rect (a, b))).
  change (aff a, aff b) with (affs (a, b)).
  destruct allow; [|f_equal; f_equal; apply hit_aff; reflexivity].
  destruct (negb (idxA =? -1)) eqn:NA, (negb (idxB =? -1)) eqn:NB.
  (* one end, or neither, on an edge: the sites that only ask the candidates about a and b *)
  2-4: f_equal; f_equal; apply hit_aff; intros si; unfold affsi; cbn [fst];
    rewrite ?fst_affs, ?snd_affs, ?raycast_on_aff; reflexivity.
  destruct (idxB =? idxA); [reflexivity|].
  pose proof (rcp_idx r a true) as IA. rewrite EA in IA. cbn [snd] in IA.
  pose proof (rcp_idx r b true) as IB. rewrite EB in IB. cbn [snd] in IB.
  apply negb_true_iff in NA, NB. apply Z.eqb_neq in NA, NB.
  destruct IA as [IA|IA]; [contradiction|]. destruct IB as [IB|IB]; [contradiction|].
  rewrite (rel_nth_seg r idxA IA), (rel_nth_seg r idxB IB).
  cbn [fst snd]. rewrite !fst_affs, !snd_affs, !(pt_eqb_aff k dx dy kpos).
  match goal with |- (if ?c then _ else _) = _ => destruct c end; [reflexivity|].
  destruct (idxB <? idxA); rewrite quad_cw_aff;
    match goal with |- (if ?c then _ else _) = _ => destruct c end; try reflexivity;
    f_equal; f_equal; apply hit_aff; intros si; unfold affsi; cbn [fst]; rewrite !raycast_on_aff; reflexivity.
Qed.

Lemma rel_rcs_b (r : rng) (sg : seg) (allow : bool) : rcs (rng_aff r) (affs sg) allow = rcs r sg allow.
Proof. unfold rcs. rewrite rel_rcs. reflexivity. Qed.

Lemma ris_count_aff (allow : bool) (sg : seg) : forall (l : list (seg * nat)) (st : Z * bool * bool),
  ris_count allow (affs sg) (map affsi l) st = ris_count allow sg l st.
Proof.
  induction l as [|[s2 i] l IH]; intros [[count aon] bon]; [reflexivity|]. cbn [map ris_count affsi fst snd].
  rewrite (intersects_segment_aff k dx dy kpos).
  rewrite !fst_affs, !snd_affs, !(collinear_point_aff k dx dy kpos), !(pt_eqb_aff k dx dy kpos).
  match goal with |- (if fst (fst ?X) <? 2 then _ else _) = (if fst (fst ?Y) <? 2 then _ else _) => change X with Y end.
  match goal with |- (if ?c then _ else _) = _ => destruct c end; [apply IH|reflexivity].
Qed.

Lemma rel_ris (r : rng) (sg : seg) (allow : bool) :
  ring_intersects_segment (rng_aff r) (affs sg) allow = ring_intersects_segment r sg allow.
Proof.
  unfold ring_intersects_segment, ring_rect. cbn [rng_aff r_rect].
  rewrite seg_rect_aff, rir_aff. destruct (negb _); [reflexivity|].
  rewrite !fst_affs, !snd_affs, !rel_rcp_hit.
  destruct (rcp_hit r (fst sg) allow); [reflexivity|]. destruct (rcp_hit r (snd sg) allow); [reflexivity|].
  rewrite rel_search, ris_count_aff. reflexivity.
Qed.

Lemma rel_rcr_core (r o : rng) (allow : bool) : rcr_core (rng_aff r) (rng_aff o) allow = rcr_core r o allow.
Proof.
  unfold rcr_core, ring_empty, ring_rect, ring_convex, ring_points, ring_segments.
  cbn [rng_aff r_pts r_segs r_rect r_convex r_empty]. rewrite rcr_aff.
  destruct (r_empty r || r_empty o); [reflexivity|]. destruct (negb _); [reflexivity|].
  destruct (r_convex r); apply forallb_map_ext; intros x; [apply rel_rcp_hit|apply rel_rcs_b].
Qed.

Lemma RR_rel (q : rect) : RR (affr q) = rng_aff (RR q).
Proof. destruct q as [[a b] [c d]]. reflexivity. Qed.

Lemma rel_rcr (r o : rng) (allow : bool) : ring_contains_ring (rng_aff r) (rng_aff o) allow = ring_contains_ring r o allow.
Proof.
  unfold ring_contains_ring, ring_empty, ring_npoints, ring_points, ring_rect. cbn [rng_aff r_pts r_rect r_empty].
  rewrite map_length, RR_rel, !rel_rcr_core. reflexivity.
Qed.

Lemma rel_rir (r o : rng) (allow : bool) : ring_intersects_ring (rng_aff r) (rng_aff o) allow = ring_intersects_ring r o allow.
Proof.
  unfold ring_intersects_ring, ring_empty, ring_rect. cbn [rng_aff r_rect r_empty]. rewrite rir_aff, !rect_area_aff, ltb_scale.
  destruct (r_empty r || r_empty o); [reflexivity|]. destruct (negb _); [reflexivity|].
  destruct (rect_area (r_rect r) <? rect_area (r_rect o)); unfold ring_segments; cbn [rng_aff r_segs];
    apply existsb_map_ext; intros sg; apply rel_ris.
Qed.

Lemma rel_ril (r l : rng) (allow : bool) : ring_intersects_line (rng_aff r) (rng_aff l) allow = ring_intersects_line r l allow.
Proof.
  unfold ring_intersects_line, ring_empty, ring_rect, ring_points, ring_segments.
  cbn [rng_aff r_pts r_segs r_rect r_empty]. rewrite rir_aff.
  rewrite (existsb_map_ext aff _ (fun p => rcp_hit r p allow)) by (intros p; apply rel_rcp_hit).
  rewrite (existsb_map_ext affs _ (fun sg => ring_intersects_segment r sg allow)) by (intros sg; apply rel_ris).
  reflexivity.
Qed.

Definition poly_aff (p : poly) : poly := {| exterior := rng_aff (exterior p); holes := map rng_aff (holes p) |}.

Lemma rel_poly_contains_point (p : poly) (q : pt) : poly_contains_point (poly_aff p) (aff q) = poly_contains_point p q.
Proof.
  unfold poly_contains_point. cbn [poly_aff exterior holes]. rewrite rel_rcp_hit.
  rewrite (existsb_map_ext rng_aff _ (fun h => rcp_hit h q false)) by (intros h; apply rel_rcp_hit). reflexivity.
Qed.

Lemma rel_poly_contains_line (p : poly) (l : rng) : poly_contains_line (poly_aff p) (rng_aff l) = poly_contains_line p l.
Proof.
  unfold poly_contains_line. cbn [poly_aff exterior holes]. rewrite rel_rcr.
  rewrite (existsb_map_ext rng_aff _ (fun h => ring_intersects_line h l false)) by (intros h; apply rel_ril). reflexivity.
Qed.

Lemma rel_poly_intersects_line (p : poly) (l : rng) : poly_intersects_line (poly_aff p) (rng_aff l) = poly_intersects_line p l.
Proof.
  unfold poly_intersects_line. cbn [poly_aff exterior holes]. rewrite rel_ril.
  rewrite (existsb_map_ext rng_aff _ (fun h => ring_contains_ring h l false)) by (intros h; apply rel_rcr). reflexivity.
Qed.

Lemma rel_poly_contains_poly (p o : poly) : poly_contains_poly (poly_aff p) (poly_aff o) = poly_contains_poly p o.
Proof.
  unfold poly_contains_poly. cbn [poly_aff exterior holes]. rewrite rel_rcr. destruct (negb _); [reflexivity|].
  apply forallb_map_ext. intros h. rewrite rel_rir. destruct (ring_intersects_ring h (exterior o) false); [|reflexivity].
  apply existsb_map_ext. intros oh. apply rel_rcr.
Qed.

Lemma rel_poly_intersects_poly (p o : poly) : poly_intersects_poly (poly_aff p) (poly_aff o) = poly_intersects_poly p o.
Proof.
  unfold poly_intersects_poly. cbn [poly_aff exterior holes]. rewrite rel_rir.
  rewrite (existsb_map_ext rng_aff _ (fun h => ring_contains_ring h (exterior o) false)) by (intros h; apply rel_rcr).
  rewrite (existsb_map_ext rng_aff _ (fun h => ring_contains_ring h (exterior p) false)) by (intros h; apply rel_rcr).
  reflexivity.
Qed.

Lemma rect_poly_rel (q : rect) : rect_poly (affr q) = poly_aff (rect_poly q).
Proof. unfold rect_poly, poly_aff. cbn [exterior holes map]. rewrite RR_rel. reflexivity. Qed.

Lemma rel_line_contains_point (l : rng) (p : pt) : line_contains_point_r (rng_aff l) (aff p) = line_contains_point_r l p.
Proof.
  unfold line_contains_point_r. change (aff p, aff p) with (affr (p, p)). rewrite rel_search.
  apply existsb_map_ext. intros si. apply raycast_on_aff.
Qed.

Lemma dotp_aff (a b e : pt) : dotp (aff a) (aff b) (aff e) = k * k * dotp a b e.
Proof. destruct a, b, e. unfold dotp, Invariance.aff, px, py. cbn [fst snd]. ring. Qed.

Definition affd (acc : pt * Z) : pt * Z := (aff (fst acc), k * k * snd acc).

Lemma rel_covers_step (l : rng) (sg : seg) (cur : pt) (curd : Z) :
  covers_step (rng_aff l) (affs sg) (aff cur) (k * k * curd) = affd (covers_step l sg cur curd).
Proof.
  destruct sg as [a b]. unfold covers_step. change (affs (a, b)) with (aff a, aff b).
  change (aff cur, aff cur) with (affr (cur, cur)). rewrite rel_search.
  change (aff cur, k * k * curd) with (affd (cur, curd)).
  generalize (cur, curd) as acc. induction (ring_search l (cur, cur)) as [|si cands IH]; intros acc; [reflexivity|].
  cbn [map fold_left]. rewrite <- IH. f_equal. unfold affsi. cbn [fst snd].
  rewrite !(collinear_point_aff k dx dy kpos), raycast_on_aff.
  destruct (collinear_point (fst si) a && collinear_point (fst si) b && raycast_on (fst si) cur); [|reflexivity].
  rewrite !fst_affs, !snd_affs, !dotp_aff. unfold affd at 1 2 3. cbn [fst snd]. rewrite !ltb_scale.
  destruct (snd acc <? dotp a b (fst (fst si))); cbn [fst snd]; rewrite ?ltb_scale;
    match goal with |- (if ?c then _ else _) = _ => destruct c end; reflexivity.
Qed.

Lemma rel_covers_walk (l : rng) (sg : seg) : forall fuel cur curd,
  covers_walk fuel (rng_aff l) (affs sg) (aff cur) (k * k * curd) = covers_walk fuel l sg cur curd.
Proof.
  induction fuel as [|f IH]; intros cur curd; [reflexivity|]. cbn [covers_walk].
  rewrite rel_covers_step. destruct (covers_step l sg cur curd) as [best bestd]. unfold affd. cbn [fst snd].
  rewrite !fst_affs, !snd_affs, dotp_aff, leb_scale, ltb_scale.
  destruct (dotp (fst sg) (snd sg) (snd sg) <=? bestd); [reflexivity|]. destruct (negb (curd <? bestd)); [reflexivity|]. apply IH.
Qed.

Lemma rel_line_covers (l : rng) (sg : seg) : line_covers_segment (rng_aff l) (affs sg) = line_covers_segment l sg.
Proof.
  unfold line_covers_segment. rewrite !fst_affs, !snd_affs, (pt_eqb_aff k dx dy kpos).
  destruct (pt_eqb (fst sg) (snd sg)); [rewrite rel_line_contains_point; reflexivity|].
  unfold covers_fuel, ring_segments. cbn [rng_aff r_segs]. rewrite map_length.
  replace 0 with (k * k * 0) at 1 by ring. apply rel_covers_walk.
Qed.

Lemma rel_line_contains_line (l o : rng) : line_contains_line (rng_aff l) (rng_aff o) = line_contains_line l o.
Proof.
  unfold line_contains_line, ring_empty, ring_segments. cbn [rng_aff r_segs r_empty]. rewrite map_map.
  destruct (r_empty l || r_empty o); [reflexivity|]. f_equal. apply map_ext. intros sg. apply rel_line_covers.
Qed.

Lemma rel_line_intersects_line (l o : rng) : line_intersects_line (rng_aff l) (rng_aff o) = line_intersects_line l o.
Proof.
  unfold line_intersects_line, ring_empty, ring_rect, ring_npoints, ring_points, ring_segments.
  cbn [rng_aff r_pts r_segs r_rect r_empty]. rewrite rir_aff, !map_length.
  destruct (r_empty l || r_empty o); [reflexivity|]. destruct (negb _); [reflexivity|].
  destruct (length (r_pts o) <? length (r_pts l))%nat; apply existsb_map_ext; intros sa;
    rewrite seg_rect_aff, rel_search; apply existsb_map_ext; intros si; apply (intersects_segment_aff k dx dy kpos).
Qed.

Lemma diag_rel (mn mx : pt) : diag_line (aff mn) (aff mx) = rng_aff (diag_line mn mx).
Proof. reflexivity. Qed.

Lemma rel_line_contains_poly (l : rng) (p : poly) : line_contains_poly (rng_aff l) (poly_aff p) = line_contains_poly l p.
Proof.
  unfold line_contains_poly, poly_empty, poly_rect, ring_empty, ring_rect. cbn [poly_aff exterior rng_aff r_rect r_empty].
  destruct (r_empty l || r_empty (exterior p)); [reflexivity|].
  destruct (r_rect (exterior p)) as [mn mx]. unfold affr. cbn [fst snd]. rewrite !aff_px, !aff_py, !(aff_eqb k kpos).
  destruct (negb (px mn =? px mx) && negb (py mn =? py mx)); [reflexivity|].
  rewrite diag_rel. apply rel_line_contains_line.
Qed.

Definition gshape_aff (g : gshape) : gshape :=
  match g with
  | GPoint p => GPoint (aff p)
  | GRect r => GRect (affr r)
  | GLine l => GLine (rng_aff l)
  | GPoly p => GPoly (poly_aff p)
  end.

Theorem g_intersects_aff (a b : gshape) : g_intersects (gshape_aff a) (gshape_aff b) = g_intersects a b.
Proof.
  destruct a as [p|r|l|p], b as [q|s|m|o]; cbn [g_intersects gshape_aff];
    unfold point_intersects_rect, point_intersects_line, point_intersects_poly, rect_intersects_line, rect_intersects_poly,
      line_intersects_rect, line_intersects_poly, poly_intersects_rect; rewrite ?RR_rel, ?rect_poly_rel.
  - apply (pt_eqb_aff k dx dy kpos).
  - apply rcp_aff.
  - apply rel_line_contains_point.
  - apply rel_poly_contains_point.
  - apply rcp_aff.
  - apply rir_aff.
  - apply rel_ril.
  - apply rel_poly_intersects_poly.
  - apply rel_line_contains_point.
  - apply rel_ril.
  - apply rel_line_intersects_line.
  - apply rel_poly_intersects_line.
  - apply rel_poly_contains_point.
  - apply rel_poly_intersects_poly.
  - apply rel_poly_intersects_line.
  - apply rel_poly_intersects_poly.
Qed.

Theorem g_contains_aff (a b : gshape) : g_contains (gshape_aff a) (gshape_aff b) = g_contains a b.
Proof.
  destruct a as [p|r|l|p], b as [q|s|m|o]; cbn [g_contains gshape_aff];
    unfold point_contains_rect, point_contains_line, point_contains_poly, rect_contains_line, rect_contains_poly,
      line_contains_rect, poly_contains_rect; rewrite ?rect_poly_rel; try apply (f_equal ob).
  - apply (pt_eqb_aff k dx dy kpos).
  - apply (rect_eqb_aff (point_rect p) s).
  - apply f_equal, (rect_eqb_aff (ring_rect m) (point_rect p)).
  - apply f_equal, (rect_eqb_aff (poly_rect o) (point_rect p)).
  - apply rcp_aff.
  - apply rcr_aff.
  - apply f_equal, rcr_aff.
  - apply f_equal, rcr_aff.
  - apply rel_line_contains_point.
  - apply rel_line_contains_poly.
  - apply rel_line_contains_line.
  - apply rel_line_contains_poly.
  - apply rel_poly_contains_point.
  - apply rel_poly_contains_poly.
  - apply rel_poly_contains_line.
  - apply rel_poly_contains_poly.
Qed.

Definition aff3 (t : pt * pt * pt) : pt * pt * pt := (aff (fst (fst t)), aff (snd (fst t)), aff (snd t)).

Lemma nthp_aff (ps : list pt) (i : nat) : (i < length ps)%nat -> nthp (map aff ps) i = aff (nthp ps i).
Proof. intros H. unfold nthp. apply (nth_map_in aff ps i pt0 pt0 H). Qed.

Lemma min_list_aff (c : Z) (l : list Z) : forall d, min_list (k * d + c) (map (fun v => k * v + c) l) = k * min_list d l + c.
Proof.
  unfold min_list. induction l as [|a l IH]; intros d; [reflexivity|]. cbn [map fold_left]. rewrite (aff_min k kpos). apply IH.
Qed.
Lemma max_list_aff (c : Z) (l : list Z) : forall d, max_list (k * d + c) (map (fun v => k * v + c) l) = k * max_list d l + c.
Proof.
  unfold max_list. induction l as [|a l IH]; intros d; [reflexivity|]. cbn [map fold_left]. rewrite (aff_max k kpos). apply IH.
Qed.

Lemma points_rect_aff (ps : list pt) : ps <> [] -> points_rect (map aff ps) = affr (points_rect ps).
Proof.
  intros Hne. rewrite !points_rect_tight. destruct ps as [|p r]; [congruence|]. cbn [map bbox_spec]. rewrite !map_map.
  rewrite (map_ext (fun x => px (aff x)) (fun x => k * px x + dx)) by reflexivity.
  rewrite (map_ext (fun x => py (aff x)) (fun x => k * py x + dy)) by reflexivity.
  rewrite <- (map_map px (fun v => k * v + dx)), <- (map_map py (fun v => k * v + dy)).
  change (px (aff p)) with (k * px p + dx). change (py (aff p)) with (k * py p + dy).
  rewrite !min_list_aff, !max_list_aff. reflexivity.
Qed.

Lemma turn_count_aff (cl : bool) (ps : list pt) : (2 <= length ps)%nat -> turn_count cl (map aff ps) = turn_count cl ps.
Proof.
  intros H. unfold turn_count. rewrite map_length, !nthp_aff by lia. rewrite (pt_eqb_aff k dx dy kpos). reflexivity.
Qed.

Lemma tri_at_aff (ps : list pt) (m i : nat) : (2 <= m <= length ps)%nat -> (i < m)%nat ->
  tri_at (map aff ps) m i = aff3 (tri_at ps m i).
Proof.
  intros Hm Hi. unfold tri_at. destruct (i =? m - 1)%nat eqn:E1; [|destruct (i =? m - 2)%nat eqn:E2].
  - rewrite !nthp_aff by lia. reflexivity.
  - apply Nat.eqb_eq in E2. rewrite !nthp_aff by lia. reflexivity.
  - apply Nat.eqb_neq in E1, E2. rewrite !nthp_aff by lia. reflexivity.
Qed.

Lemma zcross_aff3 (t : pt * pt * pt) : zcross (aff3 t) = k * k * zcross t.
Proof. destruct t as [[[ax ay] [bx by_]] [cx cy]]. unfold zcross, aff3, Invariance.aff, px, py. cbn [fst snd]. ring. Qed.

Lemma turn_step_scale (st : bool * Z) (z : Z) : turn_step st (k * k * z) = turn_step st z.
Proof.
  destruct st as [cc dir]. unfold turn_step. rewrite (sq_neg_ltb k kpos), (sq_pos_ltb k kpos). reflexivity.
Qed.

Lemma fold_turn_scale (l : list Z) : forall st, fold_left turn_step (map (fun z => k * k * z) l) st = fold_left turn_step l st.
Proof. induction l as [|z l IH]; intros st; [reflexivity|]. cbn [map fold_left]. rewrite turn_step_scale. apply IH. Qed.

(* the edges (a_i, b_i) of the turn pass are the cyclic consecutive pairs of the first m points *)
Lemma tri_at_ab (ps : list pt) (m i : nat) : (2 <= m)%nat -> (i < m)%nat ->
  fst (fst (tri_at ps m i)) = nthp ps i /\ snd (fst (tri_at ps m i)) = nthp ps ((i + 1) mod m).
Proof.
  intros Hm Hi. unfold tri_at. destruct (i =? m - 1)%nat eqn:E1; [|destruct (i =? m - 2)%nat eqn:E2]; cbn [fst snd]; split; try reflexivity.
  - apply Nat.eqb_eq in E1. replace (i + 1)%nat with m by lia. rewrite Nat.mod_same by lia. reflexivity.
  - rewrite Nat.mod_small by (apply Nat.eqb_eq in E2; lia). reflexivity.
  - apply Nat.eqb_neq in E1. rewrite Nat.mod_small by lia. reflexivity.
Qed.

Lemma cw_term_aff3 (t : pt * pt * pt) :
  cw_term (aff3 t) = k * k * cw_term t + 2 * k * dy * (px (snd (fst t)) - px (fst (fst t))).
Proof. destruct t as [[[ax ay] [bx by_]] [cx cy]]. unfold cw_term, aff3, Invariance.aff, px, py. cbn [fst snd]. ring. Qed.

Lemma zsum_scale (c : Z) (l : list Z) : zsum (map (fun z => c * z) l) = c * zsum l.
Proof. induction l as [|z l IH]; cbn [map zsum]; [ring|]. rewrite IH. ring. Qed.

Lemma zsum_map_add {A} (f g : A -> Z) (l : list A) : zsum (map (fun i => f i + g i) l) = zsum (map f l) + zsum (map g l).
Proof. induction l as [|x l IH]; cbn [map zsum]; [reflexivity|]. rewrite IH. ring. Qed.

Lemma cyclic_diff_zero (g : nat -> Z) (m : nat) : m <> 0%nat ->
  zsum (map (fun i => g ((i + 1) mod m)%nat - g i) (seq 0 m)) = 0.
Proof.
  intros Hm. rewrite (zsum_map_sub (fun i => g ((i + 1) mod m)%nat) g). rewrite (zsum_rot g m 1 Hm). ring.
Qed.

Lemma process_points_aff (ps : list pt) (cl : bool) : series_empty {| closed := cl; pts := ps |} = false ->
  process_points (map aff ps) cl =
  (fst (fst (process_points ps cl)), affr (snd (fst (process_points ps cl))), snd (process_points ps cl)).
Proof.
  unfold series_empty, npoints. cbn [closed pts]. intros He. unfold process_points. rewrite map_length, He. cbv zeta.
  apply orb_false_iff in He. destruct He as [He1 He2]. apply Nat.ltb_ge in He2.
  assert (Hn2 : (2 <= length ps)%nat) by exact He2.
  rewrite (turn_count_aff cl ps Hn2).
  set (m := turn_count cl ps).
  assert (Hm : (2 <= m <= length ps)%nat).
  { unfold m, turn_count. destruct cl; cbn [andb] in *.
    - apply Nat.ltb_ge in He1. destruct (pt_eqb _ _); lia.
    - lia. }
  assert (Htris : map (tri_at (map aff ps) m) (seq 0 m) = map aff3 (map (tri_at ps m) (seq 0 m))).
  { rewrite map_map. apply map_ext_in. intros i Hi. apply in_seq in Hi. apply tri_at_aff; lia. }
  rewrite Htris. cbn [fst snd]. f_equal; [f_equal|].
  - (* convex *)
    rewrite !map_map. rewrite (map_ext (fun x => zcross (aff3 (tri_at ps m x))) (fun x => k * k * zcross (tri_at ps m x))) by (intros; apply zcross_aff3).
    rewrite <- (map_map (fun x => zcross (tri_at ps m x)) (fun z => k * k * z)), fold_turn_scale. reflexivity.
  - apply points_rect_aff. destruct ps; [cbn in Hn2; lia|discriminate].
  - (* clockwise *)
    rewrite !fold_acc_zsum, !map_map. rewrite !Z.add_0_l.
    rewrite (map_ext (fun x => cw_term (aff3 (tri_at ps m x)))
                     (fun x => k * k * cw_term (tri_at ps m x) + 2 * k * dy * (px (snd (fst (tri_at ps m x))) - px (fst (fst (tri_at ps m x))))))
      by (intros; apply cw_term_aff3).
    rewrite (zsum_map_add (fun x => k * k * cw_term (tri_at ps m x))).
    rewrite <- (map_map (fun x => cw_term (tri_at ps m x)) (fun z => k * k * z)), zsum_scale.
    assert (Z0 : zsum (map (fun x => 2 * k * dy * (px (snd (fst (tri_at ps m x))) - px (fst (fst (tri_at ps m x))))) (seq 0 m)) = 0).
    { rewrite <- (map_map (fun x => px (snd (fst (tri_at ps m x))) - px (fst (fst (tri_at ps m x)))) (fun z => 2 * k * dy * z)), zsum_scale.
      rewrite (map_ext_in _ (fun i => px (nthp ps ((i + 1) mod m)) - px (nthp ps i))).
      - rewrite (cyclic_diff_zero (fun i => px (nthp ps i)) m) by lia. ring.
      - intros i Hi. apply in_seq in Hi. destruct (tri_at_ab ps m i) as [A B]; try lia. rewrite A, B. reflexivity. }
    rewrite Z0, Z.add_0_r. apply (sq_pos_ltb k kpos).
Qed.

Definition series_aff (s : series) : series := {| closed := closed s; pts := map aff (pts s) |}.

Lemma segments_spec_aff (s : series) : segments_spec (series_aff s) = map affs (segments_spec s).
Proof.
  destruct s as [cl ps]. unfold series_aff. cbn [closed pts]. destruct cl.
  - apply (ring_edges_aff k dx dy kpos ps).
  - unfold segments_spec. cbn [closed pts]. apply (path_segs_aff k dx dy).
Qed.

Theorem RS_rel (s : series) : series_empty s = false -> RS (series_aff s) = rng_aff (RS s).
Proof.
  intros He. destruct s as [cl ps]. unfold RS, series_aff, rng_aff. cbn [closed pts] in *.
  rewrite (process_points_aff ps cl He). destruct (process_points ps cl) as [[cv rc] cw]. cbn [fst snd r_pts r_segs r_rect r_convex r_cw r_empty].
  f_equal.
  - apply (segments_spec_aff {| closed := cl; pts := ps |}).
  - unfold series_empty, npoints. cbn [closed pts]. rewrite map_length. reflexivity.
Qed.

Definition shape_aff (s : shape) : shape :=
  match s with
  | SPoint p => SPoint (aff p)
  | SRect r => SRect (affr r)
  | SLine ps => SLine (map aff ps)
  | SPoly e hs => SPoly (map aff e) (map (map aff) hs)
  end.

(* not empty: a line has two points, every ring three (valid geometries are) *)
Definition shape_ok (s : shape) : Prop :=
  match s with
  | SLine ps => (2 <= length ps)%nat
  | SPoly e hs => (3 <= length e)%nat /\ Forall (fun h => (3 <= length h)%nat) hs
  | _ => True
  end.

Lemma ring_nonempty (ps : list pt) : (3 <= length ps)%nat -> series_empty {| closed := true; pts := ps |} = false.
Proof. intros H. rewrite closed_series_empty. apply Nat.ltb_ge. exact H. Qed.

Lemma built_rel (s : shape) : shape_ok s -> g_of_shape (shape_aff s) = gshape_aff (g_of_shape s).
Proof.
  destruct s as [p|r|ps|e hs]; cbn [shape_ok g_of_shape shape_aff gshape_aff]; intros H; [reflexivity|reflexivity| |]; f_equal.
  - apply (RS_rel (mk_line ps)). unfold series_empty, mk_line, npoints. cbn [closed pts andb orb]. apply Nat.ltb_ge. exact H.
  - destruct H as [He Hh]. unfold mk_poly, poly_aff. cbn [exterior holes]. f_equal.
    + apply (RS_rel {| closed := true; pts := e |}), ring_nonempty, He.
    + rewrite !map_map. apply map_ext_in. intros h Hin.
      apply (RS_rel {| closed := true; pts := h |}), ring_nonempty. exact (proj1 (Forall_forall _ hs) Hh h Hin).
Qed.

Theorem pair_predicates_affine (a b : shape) : shape_ok a -> shape_ok b ->
  g_intersects (g_of_shape (shape_aff a)) (g_of_shape (shape_aff b)) = g_intersects (g_of_shape a) (g_of_shape b) /\
  g_contains (g_of_shape (shape_aff a)) (g_of_shape (shape_aff b)) = g_contains (g_of_shape a) (g_of_shape b).
Proof.
  intros Ha Hb. rewrite (built_rel a Ha), (built_rel b Hb). split; [apply g_intersects_aff|apply g_contains_aff].
Qed.

End Affine.

Print Assumptions pair_predicates_affine.
Print Assumptions RS_rel.
Print Assumptions g_intersects_aff.
Print Assumptions g_contains_aff.
