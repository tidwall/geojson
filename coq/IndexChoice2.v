(* IndexChoice2.v — property C04, continued: the report of the point search for ANY order in which the
   candidates of the strip query are delivered is a valid report in the sense of IndexChoice.v; hence
   ringContainsSegment computed from point searches over differently ordered candidate lists (the
   three index kinds) gives one and the same answer on rings whose segments meet only at their ends. *)
From Coq Require Import Sorting.Permutation.
From GJ Require Import Base KernelSpec Ring RingSpec KernelProofs PipProofs ObjSelf2 IndexChoice.
Open Scope Z_scope.

(* the point search over the strip candidates in any order *)
Definition search_in_order (r : rng) (p : pt) (allow : bool) (l : list (seg * nat)) : bool * Z :=
  if negb (rect_contains_point (ring_rect r) p) then (false, -1) else pip_fold allow p l false.

Lemma search_model_order (r : rng) (p : pt) (allow : bool) :
  ring_contains_point r p allow = search_in_order r p allow (strip_search r (py p)).
Proof. reflexivity. Qed.

Theorem any_order_valid (r : rng) (p : pt) (allow : bool) (l : list (seg * nat)) :
  Permutation l (strip_search r (py p)) -> rect_contains_point (ring_rect r) p = true ->
  valid_res r p allow (search_in_order r p allow l).
Proof.
  intros HP Hr. unfold search_in_order, valid_res. rewrite Hr. cbn [negb].
  destruct (strip_search_sound r p) as [E _].
  assert (El : existsb (fun si => on_segb (fst si) p) l = on_boundaryb (ring_segments r) p).
  { rewrite <- E. apply existsb_perm. exact HP. }
  split; [|split].
  - unfold ring_contains_point. rewrite Hr. cbn [negb]. apply pip_fold_perm. exact HP.
  - intros Hb. apply pip_fold_off. rewrite El. exact Hb.
  - intros Hb. rewrite <- El in Hb. destruct (pip_fold_on allow p l false Hb) as (s & i & Hin & Hon & Hp).
    exists i. rewrite Hp. cbn [snd]. split; [reflexivity|].
    assert (Hin' : In (s, i) (strip_search r (py p))) by (apply (Permutation_in _ HP); exact Hin).
    unfold strip_search in Hin'. apply filter_In in Hin'. destruct Hin' as [Hin' _].
    assert (En : nth_seg r (Z.of_nat i) = s) by (unfold nth_seg; rewrite Nat2Z.id; apply (indexed_nth _ s _ i Hin')).
    rewrite En. split; [apply (in_combine_l _ _ _ _ Hin')|apply on_segb_iff; exact Hon].
Qed.

(* the answer of ringContainsSegment does not depend on the order of the candidates *)
Theorem rcs_any_candidate_order (r : rng) (a b : pt) (la la' lb lb' : list (seg * nat)) :
  meets_at_ends r ->
  Permutation la (strip_search r (py a)) -> Permutation la' (strip_search r (py a)) ->
  Permutation lb (strip_search r (py b)) -> Permutation lb' (strip_search r (py b)) ->
  fst (rcs_with r (a, b) true (search_in_order r a true la) (search_in_order r b true lb)) =
  fst (rcs_with r (a, b) true (search_in_order r a true la') (search_in_order r b true lb')).
Proof.
  intros Hm Pa Pa' Pb Pb'.
  destruct (rect_contains_point (ring_rect r) a) eqn:Ra; [|unfold rcs_with; rewrite Ra; reflexivity].
  destruct (rect_contains_point (ring_rect r) b) eqn:Rb; [|unfold rcs_with; rewrite Ra, Rb; reflexivity].
  apply rcs_choice_independent; [exact Hm| | | |]; apply any_order_valid; assumption.
Qed.

(* with the candidates in index order this is the model (and the code without an index) *)
Theorem rcs_index_order (r : rng) (a b : pt) :
  ring_contains_segment r (a, b) true =
  rcs_with r (a, b) true (search_in_order r a true (strip_search r (py a))) (search_in_order r b true (strip_search r (py b))).
Proof. rewrite rcs_with_model. reflexivity. Qed.

Print Assumptions rcs_any_candidate_order.
