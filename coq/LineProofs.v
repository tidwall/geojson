(* LineProofs.v — property C05 for Line.ContainsLine: the pinned segment walk (geometry/line.go
   before the repair) DIVERGES on a concrete pair of lines (finding F4: it oscillates between two
   adjacent segments, so for every amount of fuel it is still running); the repaired covering walk
   always returns within 2*segments+2 steps: the model's fuel is adequate, so [line_contains_line]
   never answers None.  In between stand the facts about points of one line, about one pass of the
   covering walk and about one step of it, on which the other files about Line.ContainsLine
   (C03, C09) rest as well. *)
From GJ Require Import Base Kernel KernelSpec RaycastProofs IntersectsProofs IntersectsQ Series Ring PairProofs.
Open Scope Z_scope.

Definition f4_ls : list seg := [((0, 0), (5, 0)); ((5, 0), (10, 0))].
Definition f4_os : list seg := [((6, 0), (5, 0)); ((5, 0), (5, 5))].

Lemma f4_step1 f : cl_walk (S f) f4_ls f4_os 1 1 = cl_walk f f4_ls f4_os 0 1.
Proof. reflexivity. Qed.
Lemma f4_step0 f : cl_walk (S f) f4_ls f4_os 0 1 = cl_walk f f4_ls f4_os 1 1.
Proof. reflexivity. Qed.

Theorem contains_line_pinned_diverges :
  forall fuel, cl_walk fuel f4_ls f4_os 1 1 = None /\ cl_walk fuel f4_ls f4_os 0 1 = None.
Proof.
  induction fuel as [|f [IH1 IH0]]; [split; reflexivity|].
  split; [rewrite f4_step1; exact IH0|rewrite f4_step0; exact IH1].
Qed.

(* the same through the entry point: [(0,0),(5,0),(10,0)].ContainsLine([(6,0),(5,0),(5,5)]) never returns *)
Theorem contains_line_pinned_refuted :
  forall fuel,
    line_contains_line_pinned fuel (RS {| closed := false; pts := [(0, 0); (5, 0); (10, 0)] |})
                                   (RS {| closed := false; pts := [(6, 0); (5, 0); (5, 5)] |}) = None.
Proof.
  intros fuel.
  change (line_contains_line_pinned fuel _ _) with (cl_walk fuel f4_ls f4_os 1 1).
  apply contains_line_pinned_diverges.
Qed.

(* points of one line: collinearity is an equivalence on a line through two different points, and a
   point of the line AB is placed along it by its coordinate [dotp A B] *)

Lemma pt_eqb_neq (a b : pt) : pt_eqb a b = false -> a <> b.
Proof. intros H E. rewrite E, pt_eqb_refl in H. discriminate. Qed.

Lemma dot_pos (a b : pt) : pt_eqb a b = false -> 0 < dotp a b b.
Proof. intros H. apply sqdist_pos, pt_eqb_neq, H. Qed.

Lemma on_seg_point (p q : pt) : on_seg (p, p) q -> q = p.
Proof. intros (_ & Hx & Hy). rewrite Z.min_id, Z.max_id in Hx, Hy. apply pt_eq_coords; lia. Qed.

Lemma pt_ne_coord (A B : pt) : A <> B -> px B - px A <> 0 \/ py B - py A <> 0.
Proof.
  intros H. destruct (Z.eq_dec (px B) (px A)) as [Ex|Nx]; [|left; lia]. right. intros Ey. apply H, pt_eq_coords; lia.
Qed.

(* two vectors parallel to a non-zero third are parallel to each other *)
Lemma parallel2 (p q a1 b1 a2 b2 : Z) : (p <> 0 \/ q <> 0) -> p * b1 - q * a1 = 0 -> p * b2 - q * a2 = 0 -> a1 * b2 - a2 * b1 = 0.
Proof.
  (* the polynomial identities of this file are left to lia, which is loaded anyway; ring is not *)
  intros [Hp|Hq] H1 H2.
  - apply (Z.mul_cancel_l _ _ p Hp). transitivity (a1 * (p * b2 - q * a2) - a2 * (p * b1 - q * a1)); [lia|rewrite H1, H2; lia].
  - apply (Z.mul_cancel_l _ _ q Hq). transitivity (b1 * (p * b2 - q * a2) - b2 * (p * b1 - q * a1)); [lia|rewrite H1, H2; lia].
Qed.

Lemma on_line_trans (U V X Y Z : pt) : U <> V -> cross U V X = 0 -> cross U V Y = 0 -> cross U V Z = 0 -> cross X Y Z = 0.
Proof.
  intros Hne HX HY HZ. apply pt_ne_coord in Hne. unfold cross in *.
  pose proof (parallel2 _ _ _ _ _ _ Hne HX HY). pose proof (parallel2 _ _ _ _ _ _ Hne HX HZ). pose proof (parallel2 _ _ _ _ _ _ Hne HY HZ).
  lia.
Qed.

(* a line through two different points of the line UV is the line UV *)
Lemma line_through (U V X Y Z : pt) : X <> Y -> cross U V X = 0 -> cross U V Y = 0 -> cross X Y Z = 0 -> cross U V Z = 0.
Proof.
  intros Hxy HX HY HZ. destruct (pt_eqb U V) eqn:E.
  - apply pt_eqb_eq in E. subst V. unfold cross. lia.
  - apply pt_eqb_neq in E.
    apply (on_line_trans X Y U V Z Hxy); [| |exact HZ]; apply (on_line_trans U V X Y _ E HX HY); unfold cross; lia.
Qed.

(* the coordinate of a point of the line AB along AB: |AB|^2 (P - A) = dotp A B P (B - A) *)
Lemma line_coord (A B P : pt) : cross A B P = 0 ->
  dotp A B B * (px P - px A) = dotp A B P * (px B - px A) /\ dotp A B B * (py P - py A) = dotp A B P * (py B - py A).
Proof.
  unfold cross, dotp. intros H. split.
  - apply Z.sub_move_0_r. transitivity (- (py B - py A) * ((px B - px A) * (py P - py A) - (py B - py A) * (px P - px A))); [lia|rewrite H; lia].
  - apply Z.sub_move_0_r. transitivity ((px B - px A) * ((px B - px A) * (py P - py A) - (py B - py A) * (px P - px A))); [lia|rewrite H; lia].
Qed.

Lemma coord_between N u a dc dq de c q e :
  0 < N -> N * (c - a) = dc * u -> N * (q - a) = dq * u -> N * (e - a) = de * u -> dc <= dq <= de -> Z.min c e <= q <= Z.max c e.
Proof.
  intros HN Ec Eq Ee Hd. destruct (Z.le_ge_cases 0 u); [assert (N * c <= N * q <= N * e) by nia|assert (N * e <= N * q <= N * c) by nia]; nia.
Qed.

(* on the line AB a point whose coordinate lies between those of C and E lies on the segment CE *)
Lemma between_on_seg (A B C E P : pt) : A <> B -> cross A B C = 0 -> cross A B E = 0 -> cross A B P = 0 ->
  dotp A B C <= dotp A B P <= dotp A B E -> on_seg (C, E) P.
Proof.
  intros Hab HC HE HP Hd. pose proof (sqdist_pos A B Hab) as HN.
  destruct (line_coord A B C HC) as [Cx Cy], (line_coord A B E HE) as [Ex Ey], (line_coord A B P HP) as [Px Py].
  split; [apply (on_line_trans A B C E P Hab HC HE HP)|].
  split; [apply (coord_between _ _ _ _ _ _ _ _ _ HN Cx Px Ex Hd)|apply (coord_between _ _ _ _ _ _ _ _ _ HN Cy Py Ey Hd)].
Qed.

(* [dotp a b] is affine along a segment *)
Lemma dotp_along (a b P V W : pt) n d :
  d * (px W - px P) = n * (px V - px P) -> d * (py W - py P) = n * (py V - py P) ->
  d * dotp a b W = (d - n) * dotp a b P + n * dotp a b V.
Proof.
  intros Ex Ey.
  transitivity ((px b - px a) * (d * (px W - px P)) + (py b - py a) * (d * (py W - py P)) + d * dotp a b P);
    [|rewrite Ex, Ey]; unfold dotp; lia.
Qed.

(* along a segment the projection of a point lies between those of the ends *)
Lemma dot_between_ends (A B S1 S2 P : pt) : on_seg (S1, S2) P ->
  (dotp A B S1 <= dotp A B P <= dotp A B S2 \/ dotp A B S2 <= dotp A B P <= dotp A B S1).
Proof.
  intros H. destruct (on_seg_param S1 S2 P H) as (n & d & Hd & Hn & Ex & Ey).
  pose proof (dotp_along A B S1 S2 P n d Ex Ey) as E. clear - Hd Hn E.
  destruct (Z.le_ge_cases (dotp A B S1) (dotp A B S2)); [left|right]; nia.
Qed.

Lemma ring_search_in (l : rng) (q : rect) (si : seg * nat) : In si (ring_search l q) -> In (fst si) (ring_segments l).
Proof.
  unfold ring_search, indexed. intros H. apply filter_In in H. destruct H as [H _].
  destruct si as [s i]. apply in_combine_l in H. exact H.
Qed.

Lemma in_indexed {A} (l : list A) (x : A) : In x l -> exists i, In (x, i) (indexed l).
Proof.
  unfold indexed. generalize 0%nat. induction l as [|y l IH]; intros n; [intros []|].
  intros [->|Hin]; cbn [length seq combine].
  - exists n. left. reflexivity.
  - destruct (IH (S n) Hin) as (i & Hi). exists i. right. exact Hi.
Qed.

(* Search at a point reports every segment the point lies on *)
Lemma search_on (l : rng) (s : seg) (p : pt) : In s (ring_segments l) -> on_seg s p -> exists i, In (s, i) (ring_search l (p, p)).
Proof.
  intros Hin Hon. destruct (in_indexed _ _ Hin) as (i & Hi). exists i. unfold ring_search. apply filter_In. split; [exact Hi|]. cbn [fst].
  destruct s as [[s1x s1y] [s2x s2y]], p as [x y]. unfold on_seg, px, py in Hon. cbn [fst snd] in Hon.
  apply rir_iff. unfold seg_rect, px, py. cbn [fst snd]. lia.
Qed.

Lemma line_contains_point_r_iff (l : rng) (p : pt) :
  line_contains_point_r l p = true <-> exists s, In s (ring_segments l) /\ on_seg s p.
Proof.
  unfold line_contains_point_r. rewrite existsb_exists. split.
  - intros (si & Hin & Hon). exists (fst si). split; [exact (ring_search_in _ _ _ Hin)|apply raycast_on_iff, Hon].
  - intros (s & Hs & Hon). destruct (search_on l s p Hs Hon) as (i & Hi). exists (s, i). split; [exact Hi|apply raycast_on_iff, Hon].
Qed.

(* the pass moves on to an end e when e lies farther along ab than the best end so far *)
Definition adv (a b : pt) (acc : pt * Z) (e : pt) : pt * Z :=
  let d := dotp a b e in if snd acc <? d then (e, d) else acc.

Lemma adv_cases a b acc e :
  (adv a b acc e = acc /\ dotp a b e <= snd acc) \/ (adv a b acc e = (e, dotp a b e) /\ snd acc < dotp a b e).
Proof. unfold adv. cbv zeta. destruct (Z.ltb_spec (snd acc) (dotp a b e)); [right|left]; split; (reflexivity || assumption). Qed.

Lemma adv_snd a b acc e : snd (adv a b acc e) = Z.max (snd acc) (dotp a b e).
Proof. destruct (adv_cases a b acc e) as [[-> ?]|[-> ?]]; cbn [snd]; lia. Qed.

(* covers_step folds this function over the candidates that Search reports at cur *)
Definition cstep (a b cur : pt) (acc : pt * Z) (si : seg * nat) : pt * Z :=
  let s := fst si in
  if collinear_point s a && collinear_point s b && raycast_on s cur then adv a b (adv a b acc (fst s)) (snd s) else acc.

Lemma covers_step_fold l a b cur curd :
  covers_step l (a, b) cur curd = fold_left (cstep a b cur) (ring_search l (cur, cur)) (cur, curd).
Proof. reflexivity. Qed.

Lemma cstep_snd a b cur acc si : snd (cstep a b cur acc si) =
  if collinear_point (fst si) a && collinear_point (fst si) b && raycast_on (fst si) cur
  then Z.max (snd acc) (Z.max (dotp a b (fst (fst si))) (dotp a b (snd (fst si)))) else snd acc.
Proof.
  unfold cstep. cbv zeta. destruct (collinear_point (fst si) a && collinear_point (fst si) b && raycast_on (fst si) cur); [|reflexivity].
  rewrite !adv_snd. lia.
Qed.

Lemma cfold_mono a b cur cands : forall acc, snd acc <= snd (fold_left (cstep a b cur) cands acc).
Proof.
  induction cands as [|si cands IH]; intros acc; cbn [fold_left]; [lia|].
  pose proof (cstep_snd a b cur acc si) as E. pose proof (IH (cstep a b cur acc si)).
  destruct (collinear_point (fst si) a && collinear_point (fst si) b && raycast_on (fst si) cur); lia.
Qed.

(* a pass reaches both ends of every candidate that is collinear with ab and carries cur *)
Lemma cfold_reach a b cur si cands : In si cands ->
  collinear_point (fst si) a && collinear_point (fst si) b && raycast_on (fst si) cur = true ->
  forall acc, dotp a b (fst (fst si)) <= snd (fold_left (cstep a b cur) cands acc) /\
              dotp a b (snd (fst si)) <= snd (fold_left (cstep a b cur) cands acc).
Proof.
  induction cands as [|x cands IH]; [intros []|]. intros [->|Hin] G acc; cbn [fold_left].
  - pose proof (cstep_snd a b cur acc si) as E. rewrite G in E. pose proof (cfold_mono a b cur cands (cstep a b cur acc si)). lia.
  - apply IH; assumption.
Qed.

Lemma fold_left_inv {A B} (f : A -> B -> A) (P : A -> Prop) (l : list B) :
  (forall a x, In x l -> P a -> P (f a x)) -> forall a, P a -> P (fold_left f l a).
Proof.
  induction l as [|x l IH]; intros Hf a Ha; [exact Ha|]. cbn [fold_left].
  apply IH; [intros a' y Hy; apply Hf; right; exact Hy|apply Hf; [left; reflexivity|exact Ha]].
Qed.

(* where the result of a pass that made progress comes from: an end of a segment of l that is
   collinear with (a, b) and carries cur *)
Definition step_src (l : rng) (a b cur : pt) (r : pt * Z) : Prop :=
  exists s, In s (ring_segments l) /\ collinear_point s a = true /\ collinear_point s b = true /\
            raycast_on s cur = true /\ (fst r = fst s \/ fst r = snd s) /\ snd r = dotp a b (fst r).

(* one pass returns the start value or such an end, strictly farther along (a, b) *)
Lemma covers_step_strong (l : rng) (a b cur : pt) (curd : Z) :
  let r := covers_step l (a, b) cur curd in
  curd <= snd r /\ (r = (cur, curd) \/ (step_src l a b cur r /\ curd < snd r)).
Proof.
  rewrite covers_step_fold. set (P := fun r => curd <= snd r /\ (r = (cur, curd) \/ (step_src l a b cur r /\ curd < snd r))).
  (* moving on to an end of a source segment keeps P *)
  assert (Adv : forall acc e, P acc -> step_src l a b cur (e, dotp a b e) -> P (adv a b acc e)).
  { intros acc e [Hle Hacc] He. unfold P. destruct (adv_cases a b acc e) as [[-> _]|[-> Hlt]]; [split; assumption|].
    cbn [snd]. split; [lia|right; split; [exact He|lia]]. }
  apply (fold_left_inv _ P); [|split; [cbn [snd]; lia|left; reflexivity]].
  intros acc si Hin HP. apply ring_search_in in Hin. unfold cstep. cbv zeta.
  destruct (collinear_point (fst si) a && collinear_point (fst si) b && raycast_on (fst si) cur) eqn:E; [|exact HP].
  rewrite !andb_true_iff in E. destruct E as [[Ca Cb] Ron].
  apply Adv; [apply Adv; [exact HP|]|]; exists (fst si); cbn [fst snd]; auto 10.
Qed.

Definition ends (l : rng) : list pt := flat_map (fun s => [fst s; snd s]) (ring_segments l).

Lemma step_src_end (l : rng) (a b cur : pt) (r : pt * Z) : step_src l a b cur r -> In (fst r) (ends l).
Proof.
  intros (s & Hs & _ & _ & _ & He & _). apply in_flat_map. exists s. split; [exact Hs|].
  destruct He as [-> | ->]; [left|right; left]; reflexivity.
Qed.

(* what a pass that makes progress from a point at its own coordinate tells about its source segment: it
   is not degenerate (its ends would be cur itself), it lies on the line ab, and so does the new point *)
Lemma src_line (l : rng) (a b cur : pt) (curd : Z) (r : pt * Z) :
  curd = dotp a b cur -> step_src l a b cur r -> curd < snd r ->
  exists s, In s (ring_segments l) /\ fst s <> snd s /\ cross (fst s) (snd s) a = 0 /\ cross (fst s) (snd s) b = 0 /\
            on_seg s cur /\ (fst r = fst s \/ fst r = snd s) /\ snd r = dotp a b (fst r) /\ cross a b (fst r) = 0.
Proof.
  intros Hcd (s & Hs & Ca & Cb & Ron & Hend & Hd) Hlt.
  exists s. split; [exact Hs|]. apply collinear_point_iff in Ca. apply collinear_point_iff in Cb. apply raycast_on_iff in Ron.
  assert (Hne : fst s <> snd s).
  { intros E. destruct s as [s1 s2]. cbn [fst snd] in *. subst s2. apply on_seg_point in Ron. subst s1.
    destruct Hend as [E|E]; rewrite E in Hd; lia. }
  split; [exact Hne|]. split; [exact Ca|]. split; [exact Cb|]. split; [exact Ron|]. split; [exact Hend|]. split; [exact Hd|].
  apply (on_line_trans (fst s) (snd s) a b (fst r) Hne Ca Cb). destruct Hend as [-> | ->]; unfold cross; lia.
Qed.

(* a segment that is a point is looked up; any other is decided by the walk from its first end, which has
   fuel for a first pass *)
Lemma covers_point (l : rng) (a : pt) : line_covers_segment l (a, a) = Some (line_contains_point_r l a).
Proof. unfold line_covers_segment. cbn [fst snd]. rewrite pt_eqb_refl. reflexivity. Qed.

Lemma covers_point_true (l : rng) (a : pt) : line_covers_segment l (a, a) = Some true <-> exists s, In s (ring_segments l) /\ on_seg s a.
Proof. rewrite covers_point, <- line_contains_point_r_iff. split; [intros [= H]; exact H|intros ->; reflexivity]. Qed.

Lemma covers_first_pass (l : rng) (a b : pt) : pt_eqb a b = false ->
  line_covers_segment l (a, b) = covers_walk (S (2 * length (ring_segments l) + 1)) l (a, b) a 0.
Proof. intros E. unfold line_covers_segment, covers_fuel. cbn [fst snd]. rewrite E. f_equal. lia. Qed.

(* a step whose pass makes no progress stops; one whose pass moves on stops with true when the far end is
   reached and goes on from the new point otherwise *)
Lemma covers_walk_S (f : nat) (l : rng) (a b cur : pt) (curd : Z) :
  let r := covers_step l (a, b) cur curd in
  (r = (cur, curd) /\ covers_walk (S f) l (a, b) cur curd = Some (dotp a b b <=? curd)) \/
  (step_src l a b cur r /\ curd < snd r /\
   covers_walk (S f) l (a, b) cur curd = if dotp a b b <=? snd r then Some true else covers_walk f l (a, b) (fst r) (snd r)).
Proof.
  cbn [covers_walk fst snd]. pose proof (covers_step_strong l a b cur curd) as R. cbv zeta in *.
  destruct (covers_step l (a, b) cur curd) as [best bestd]. cbn [fst snd] in *. destruct R as [_ [E|[Hsrc Hprog]]].
  - left. split; [exact E|]. inversion E. rewrite Z.ltb_irrefl. destruct (dotp a b b <=? curd); reflexivity.
  - right. split; [exact Hsrc|]. split; [exact Hprog|]. destruct (Z.ltb_spec curd bestd); [reflexivity|lia].
Qed.

(* an accepting step before the far end: its pass made progress, to the far end or to a point from which
   the walk accepts *)
Lemma covers_walk_true (f : nat) (l : rng) (a b cur : pt) (curd : Z) :
  curd < dotp a b b -> covers_walk (S f) l (a, b) cur curd = Some true ->
  exists r, step_src l a b cur r /\ curd < snd r /\
            (dotp a b b <= snd r \/ snd r < dotp a b b /\ covers_walk f l (a, b) (fst r) (snd r) = Some true).
Proof.
  intros Hlt H. destruct (covers_walk_S f l a b cur curd) as [[_ E]|(Hsrc & Hprog & E)]; rewrite E in H.
  - destruct (Z.leb_spec (dotp a b b) curd); [lia|discriminate].
  - exists (covers_step l (a, b) cur curd). split; [exact Hsrc|]. split; [exact Hprog|].
    destruct (Z.leb_spec (dotp a b b) (snd (covers_step l (a, b) cur curd))); [left; assumption|right; split; assumption].
Qed.

(* the repaired walk returns: every step strictly increases the distance along the segment, and that
   distance is the projection of one of finitely many segment ends *)

(* the segment ends whose projection is still ahead of the walk *)
Definition ahead (l : rng) (sg : seg) (d : Z) : list pt :=
  filter (fun e => d <? dotp (fst sg) (snd sg) e) (ends l).

Lemma ahead_shrinks (l : rng) (sg : seg) (d d' : Z) (e : pt) :
  In e (ends l) -> d < dotp (fst sg) (snd sg) e -> d' = dotp (fst sg) (snd sg) e ->
  (length (ahead l sg d') < length (ahead l sg d))%nat.
Proof.
  intros Hin Hlt ->. unfold ahead. apply (filter_length_lt _ _ _ e); [|exact Hin| |].
  - intros x _ H. apply Z.ltb_lt in H. apply Z.ltb_lt. lia.
  - apply Z.ltb_lt. exact Hlt.
  - apply Z.ltb_irrefl.
Qed.

(* fuel: one more than the number of ends still ahead always suffices *)
Lemma covers_walk_terminates (l : rng) (sg : seg) : forall fuel cur curd,
  (length (ahead l sg curd) < fuel)%nat -> covers_walk fuel l sg cur curd <> None.
Proof.
  induction fuel as [|f IH]; intros cur curd Hf; [lia|]. destruct sg as [a b].
  destruct (covers_walk_S f l a b cur curd) as [[_ E]|(Hsrc & Hprog & E)]; rewrite E; [discriminate|].
  destruct (dotp a b b <=? snd (covers_step l (a, b) cur curd)); [discriminate|].
  pose proof Hsrc as (_ & _ & _ & _ & _ & _ & Hd). rewrite Hd in Hprog.
  apply IH. pose proof (ahead_shrinks l (a, b) curd _ _ (step_src_end _ _ _ _ _ Hsrc) Hprog Hd). lia.
Qed.

Lemma filter_len_le {A} (f : A -> bool) (xs : list A) : (length (filter f xs) <= length xs)%nat.
Proof. induction xs as [|x xs IH]; cbn [filter length]; [lia|]. destruct (f x); cbn [length]; lia. Qed.

Lemma ahead_bound (l : rng) (sg : seg) (d : Z) : (length (ahead l sg d) <= 2 * length (ring_segments l))%nat.
Proof.
  unfold ahead. etransitivity; [apply filter_len_le|].
  unfold ends. induction (ring_segments l) as [|s ss IH]; cbn [flat_map length app]; lia.
Qed.

Theorem line_covers_segment_total (l : rng) (sg : seg) : line_covers_segment l sg <> None.
Proof.
  unfold line_covers_segment. destruct (pt_eqb (fst sg) (snd sg)); [discriminate|].
  apply covers_walk_terminates. unfold covers_fuel. pose proof (ahead_bound l sg 0). lia.
Qed.

Lemma all_some_total (xs : list (option bool)) : (forall x, In x xs -> x <> None) -> all_some xs <> None.
Proof.
  induction xs as [|x xs IH]; intros H; [discriminate|].
  cbn [all_some]. destruct x as [[|]|]; [|discriminate|exfalso; apply (H None); [left; reflexivity|reflexivity]].
  apply IH. intros y Hy. apply H. right; exact Hy.
Qed.

Theorem line_contains_line_total (l o : rng) : line_contains_line l o <> None.
Proof.
  unfold line_contains_line. destruct (ring_empty l || ring_empty o); [discriminate|].
  apply all_some_total. intros x Hx. apply in_map_iff in Hx. destruct Hx as (sg & <- & _).
  apply line_covers_segment_total.
Qed.

Lemma all_some_true_iff (xs : list (option bool)) : all_some xs = Some true <-> forall x, In x xs -> x = Some true.
Proof.
  induction xs as [|[[|]|] xs IH]; cbn [all_some].
  - split; [intros _ x []|reflexivity].
  - rewrite IH. split; [intros H x [<-|Hx]; [reflexivity|apply H, Hx]|intros H x Hx; apply H; right; exact Hx].
  - split; [discriminate|intros H; discriminate (H _ (or_introl eq_refl))].
  - split; [discriminate|intros H; discriminate (H _ (or_introl eq_refl))].
Qed.

(* Line.ContainsLine accepts exactly when both lines are non-empty and every segment of the argument is accepted *)
Lemma line_contains_line_true (l o : rng) : line_contains_line l o = Some true <->
  ring_empty l = false /\ ring_empty o = false /\ forall sg, In sg (ring_segments o) -> line_covers_segment l sg = Some true.
Proof.
  unfold line_contains_line. destruct (ring_empty l), (ring_empty o); cbn [orb];
    try (split; [discriminate|intros (A & B & _); discriminate]).
  rewrite all_some_true_iff. split.
  - intros H. split; [reflexivity|]. split; [reflexivity|]. intros sg Hsg. apply H, in_map, Hsg.
  - intros (_ & _ & H) x Hx. apply in_map_iff in Hx. destruct Hx as (sg & <- & Hsg). apply H, Hsg.
Qed.

Theorem line_contains_poly_total (l : rng) (p : poly) : line_contains_poly l p <> None.
Proof.
  unfold line_contains_poly. destruct (ring_empty l || poly_empty p); [discriminate|].
  destruct (poly_rect p) as [mn mx].
  destruct (negb (px mn =? px mx) && negb (py mn =? py mx)); [discriminate|apply line_contains_line_total].
Qed.

Print Assumptions contains_line_pinned_refuted.
Print Assumptions line_contains_line_total.
