(* ParseValid.v — property C08, the RequireValid clause: every object that Parse
   returns under RequireValid is valid, and so is every nested object of the nine
   standard types (for a Circle: the Point it was recognised from); and the
   option does nothing else: the run with it returns what the run without it
   returns, or an error where that object reports itself invalid (rv_rel). *)
From GJ Require Import Base Json JsonProofs.
Open Scope Z_scope.

(* the Circle is as valid as the point geometry it replaces *)
Lemma circ_of_valid (o : popts) (one : Z) (base : gobj) (foreign : list (jkey * jv)) (r : gobj) :
  circ_of o one base foreign = Some (POk r) -> g_valid o r = g_valid o base.
Proof.
  intros H. destruct (circ_of_ok _ _ _ _ _ H) as (p & m & _ & -> & [->|[ex ->]]); reflexivity.
Qed.

Definition with_rv (o : popts) (b : bool) : popts :=
  {| allow_simple := allow_simple o; allow_rects := allow_rects o; require_valid := b;
     disable_circle := disable_circle o; l180 := l180 o; l90 := l90 o |}.

Lemma g_valid_rv (o : popts) (b : bool) (g : gobj) : g_valid (with_rv o b) g = g_valid o g.
Proof. apply g_valid_ext; reflexivity. Qed.

(* the relation between the run without and the run with RequireValid: a rejection stays a rejection;
   an accepted object is returned unchanged when valid and rejected when not *)
Definition rv_rel (o : popts) (without with_ : pres) : Prop :=
  match without with
  | PErr _ => exists c, with_ = PErr c
  | POk g => if g_valid o g then with_ = POk g else exists c, with_ = PErr c
  end.

Lemma check_rel (o : popts) (g : gobj) (code : Z) :
  rv_rel o (check (with_rv o false) g code) (check (with_rv o true) g code).
Proof.
  unfold check. cbn [with_rv require_valid andb]. rewrite g_valid_rv. unfold rv_rel.
  destruct (g_valid o g); cbn [negb]; [reflexivity|eexists; reflexivity].
Qed.

Definition res_pres (r : res gobj) : pres := match r with ROk g => POk g | RErr c => PErr c end.

Lemma map_until_rel (o : popts) (f0 f1 : jv -> res gobj) (l : list jv) :
  (forall x, In x l -> rv_rel o (res_pres (f0 x)) (res_pres (f1 x))) ->
  match map_until f0 l with
  | RErr _ => exists c, map_until f1 l = RErr c
  | ROk kids => if forallb (g_valid o) kids then map_until f1 l = ROk kids else exists c, map_until f1 l = RErr c
  end.
Proof.
  induction l as [|x l IH]; intros H; cbn [map_until]; [reflexivity|].
  pose proof (H x (or_introl eq_refl)) as Hx. unfold rv_rel, res_pres in Hx.
  assert (IH' := IH (fun y Hy => H y (or_intror Hy))).
  destruct (f0 x) as [g|c].
  - destruct (g_valid o g) eqn:Eg.
    + destruct (f1 x) as [g1|c1]; [|discriminate]. inversion Hx; subst g1.
      destruct (map_until f0 l) as [kids|c].
      * cbn [forallb]. rewrite Eg. cbn [andb]. destruct (forallb (g_valid o) kids).
        -- rewrite IH'. reflexivity.
        -- destruct IH' as [c Hc]. rewrite Hc. eexists; reflexivity.
      * destruct IH' as [c' Hc]. rewrite Hc. eexists; reflexivity.
    + destruct Hx as [c1 Hc1]. destruct (f1 x) as [g1|c1']; [discriminate|].
      destruct (map_until f0 l) as [kids|c]; [cbn [forallb]; rewrite Eg; cbn [andb]|]; eexists; reflexivity.
  - destruct Hx as [c1 Hc1]. destruct (f1 x) as [g1|c1']; [discriminate|]. eexists; reflexivity.
Qed.

Lemma circle_of_rv_all (o : popts) (b : bool) (one : Z) (p : fpt) (ms : list (jkey * jv)) :
  circle_of (with_rv o b) one p ms = circle_of o one p ms.
Proof. reflexivity. Qed.

Lemma res_pres_pres_res (p : pres) : res_pres (pres_res p) = p.
Proof. destruct p; reflexivity. Qed.

Lemma rv_rel_err (o : popts) (c : Z) (w : pres) : (exists c', w = PErr c') -> rv_rel o (PErr c) w.
Proof. intros H. exact H. Qed.

(* the two runs agree branch by branch once they agree on the nested objects *)
Lemma kind_rv (o : popts) (one : Z) (rec0 rec1 : jv -> pres) (K : tkind) (ks : pkeys) :
  (forall v, rv_rel o (rec0 v) (rec1 v)) ->
  rv_rel o (parse_kind rec0 (with_rv o false) one K ks) (parse_kind rec1 (with_rv o true) one K ks).
Proof.
  intros Hrec. destruct K as [| | | |k]; cbn [parse_kind].
  - unfold parse_pt. change (allow_simple (with_rv o false)) with (allow_simple o). change (allow_simple (with_rv o true)) with (allow_simple o).
    destruct (parse_point_coords true (k_coords ks)) as [[p ex]|c]; [|eexists; reflexivity]. cbv zeta.
    destruct (with_members ex (k_foreign ks)); [|destruct (allow_simple o)]; apply check_rel.
  - unfold parse_ln. destruct (parse_line_coords true (k_coords ks)) as [[ps ex]|c]; [|eexists; reflexivity].
    destruct (length ps <? 2)%nat; [eexists; reflexivity|]. apply check_rel.
  - unfold parse_pg. change (allow_rects (with_rv o false)) with (allow_rects o). change (allow_rects (with_rv o true)) with (allow_rects o).
    destruct (parse_poly_coords true (k_coords ks)) as [[rings ex]|c]; [|eexists; reflexivity].
    destruct rings as [|ext holes]; [eexists; reflexivity|].
    destruct (negb (forallb ring_ok (ext :: holes))); [eexists; reflexivity|]. cbv zeta.
    destruct (with_members ex (k_foreign ks)) as [e|]; [apply check_rel|].
    destruct holes; [destruct (allow_rects o && perfect_rect ext)|]; apply check_rel.
  - unfold parse_ft. destruct (k_geom ks) as [gv|]; [|eexists; reflexivity].
    specialize (Hrec gv). destruct (rec0 gv) as [base|c]; cbn [rv_rel] in Hrec; [|destruct Hrec as [c' ->]; eexists; reflexivity].
    change (circ_of (with_rv o true)) with (circ_of o). change (circ_of (with_rv o false)) with (circ_of o).
    pose proof (circ_of_valid o one base (k_foreign ks)) as Hcv.
    destruct (g_valid o base) eqn:Eb.
    + rewrite Hrec. destruct (circ_of o one base (k_foreign ks)) as [[g|c]|]; cbn [rv_rel g_valid].
      * rewrite (Hcv g eq_refl). reflexivity.
      * eexists; reflexivity.
      * rewrite Eb. reflexivity.
    + destruct Hrec as [c ->]. destruct (circ_of o one base (k_foreign ks)) as [[g|c']|]; cbn [rv_rel g_valid].
      * rewrite (Hcv g eq_refl). eexists; reflexivity.
      * eexists; reflexivity.
      * rewrite Eb. eexists; reflexivity.
  - unfold parse_coll, coll_child. destruct (coll_src k ks) as [cv|]; [|eexists; reflexivity].
    destruct (negb (is_array cv)); [eexists; reflexivity|]. destruct (k <? 3).
    + destruct (map_until (multi_child k) (elems cv)) as [kids|c]; [apply check_rel|eexists; reflexivity].
    + pose proof (map_until_rel o (fun c => pres_res (rec0 c)) (fun c => pres_res (rec1 c)) (elems cv)) as M.
      cbv beta in M. specialize (M (fun x _ => ltac:(rewrite !res_pres_pres_res; apply Hrec))).
      destruct (map_until (fun c => pres_res (rec0 c)) (elems cv)) as [kids|c].
      * cbn [rv_rel g_valid]. destruct (forallb (g_valid o) kids); [rewrite M; reflexivity|].
        destruct M as [c ->]. eexists; reflexivity.
      * destruct M as [c' ->]. eexists; reflexivity.
Qed.

Theorem parse_rv_exact (fuel : nat) : forall (o : popts) (one : Z) (v : jv),
  rv_rel o (parse fuel (with_rv o false) one v) (parse fuel (with_rv o true) one v).
Proof.
  intros o one v. apply (parse_rel (rv_rel o)); [intros c c'; exists c'; reflexivity|]. exact (kind_rv o one).
Qed.

(* under RequireValid the second run is the run itself *)
Theorem parse_require_valid (fuel : nat) : forall (o : popts) (one : Z) (v : jv) (g : gobj),
  require_valid o = true -> parse fuel o one v = POk g -> g_valid o g = true.
Proof.
  intros o one v g Hv H. pose proof (parse_rv_exact fuel o one v) as R.
  assert (E : with_rv o true = o) by (rewrite <- Hv; destruct o; reflexivity). rewrite E, H in R. unfold rv_rel in R.
  destruct (parse fuel (with_rv o false) one v) as [g0|c]; [|destruct R; discriminate].
  destruct (g_valid o g0) eqn:Eg; [inversion R; subst; exact Eg|destruct R; discriminate].
Qed.

Print Assumptions parse_require_valid.
Print Assumptions parse_rv_exact.
