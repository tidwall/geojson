(* BoxLaws.v — the rectangle laws of property C09 and the composition law of C10
   for Intersects:
     if A intersects B then their rectangles intersect
   for every pair of geometries the object layer builds (all sixteen kind pairs)
   and, lifted through Features and collections, for every pair of object trees
   whose rectangles are well formed.  With it the rectangle pre-filter of collection.Search becomes
   invisible in "a collection intersects X iff some non-empty child intersects
   some non-empty part of X". *)
From GJ Require Import Base KernelProofs Ring RingSpec PipProofs PairProofs LineProofs Pairs Obj ObjSpec ObjProofs.
Open Scope Z_scope.

Lemma rir_point_in (r : rect) (p : pt) : rect_contains_point r p = true -> rect_intersects_rect r (p, p) = true.
Proof. rect_lia. Qed.

Lemma seg_ends_in_rect (ps : list pt) (s : seg) : In s (ring_segments (Lr ps)) ->
  inbox (ring_rect (Lr ps)) (fst s) /\ inbox (ring_rect (Lr ps)) (snd s).
Proof.
  rewrite Lr_segs. destruct s as [a b]. intros Hin. destruct (path_segs_endpoints ps a b Hin) as [Ha Hb].
  assert (Hlen : (2 <= length ps)%nat) by (destruct ps as [|x [|y l]]; [destruct Hin..|cbn; lia]).
  rewrite (Lr_rect ps Hlen). split; apply bbox_inbox; assumption.
Qed.

Lemma line_point_in_rect (ps : list pt) (p : pt) :
  line_contains_point_r (Lr ps) p = true -> rect_contains_point (ring_rect (Lr ps)) p = true.
Proof.
  intros H. apply line_contains_point_r_iff in H. destruct H as ([a b] & Hs & Hon). destruct (seg_ends_in_rect ps _ Hs) as [Ha Hb].
  apply rect_contains_point_inbox, (on_segb_inbox _ a b p Ha Hb), on_segb_iff, Hon.
Qed.

Lemma ring_intersects_line_boxes (r l : rng) (allow : bool) :
  ring_intersects_line r l allow = true -> rect_intersects_rect (ring_rect r) (ring_rect l) = true.
Proof.
  unfold ring_intersects_line. destruct (ring_empty r || ring_empty l); [discriminate|].
  destruct (rect_intersects_rect (ring_rect r) (ring_rect l)); [reflexivity|discriminate].
Qed.

Lemma ring_intersects_ring_boxes (r o : rng) (allow : bool) :
  ring_intersects_ring r o allow = true -> rect_intersects_rect (ring_rect r) (ring_rect o) = true.
Proof.
  unfold ring_intersects_ring. destruct (ring_empty r || ring_empty o); [discriminate|].
  destruct (rect_intersects_rect (ring_rect r) (ring_rect o)); [reflexivity|discriminate].
Qed.

Lemma poly_point_in_rect (o : poly) (p : pt) :
  poly_contains_point o p = true -> rect_contains_point (poly_rect o) p = true.
Proof.
  unfold poly_contains_point, poly_rect. rewrite rcp_hit_gen.
  destruct (rect_contains_point (ring_rect (exterior o)) p); [reflexivity|discriminate].
Qed.

Lemma poly_point_boxes (o : poly) (p : pt) :
  poly_contains_point o p = true -> rect_intersects_rect (poly_rect o) (p, p) = true.
Proof. intros H. apply rir_point_in, poly_point_in_rect, H. Qed.

Lemma poly_intersects_poly_boxes (p o : poly) :
  poly_intersects_poly p o = true -> rect_intersects_rect (poly_rect p) (poly_rect o) = true.
Proof.
  unfold poly_intersects_poly, poly_rect.
  destruct (ring_intersects_ring (exterior o) (exterior p) true) eqn:E; [|discriminate]. intros _.
  rewrite rect_intersects_rect_sym. apply (ring_intersects_ring_boxes _ _ _ E).
Qed.

Lemma poly_intersects_line_boxes (p : poly) (l : rng) :
  poly_intersects_line p l = true -> rect_intersects_rect (poly_rect p) (ring_rect l) = true.
Proof.
  unfold poly_intersects_line, poly_rect.
  destruct (ring_intersects_line (exterior p) l true) eqn:E; [|discriminate]. intros _.
  apply (ring_intersects_line_boxes _ _ _ E).
Qed.

(* the geometries the object layer builds: lines and polygons come from point lists *)
Inductive built : gshape -> Prop :=
| built_point p : built (GPoint p)
| built_rect r : built (GRect r)
| built_line ps : built (GLine (Lr ps))
| built_poly p : built (GPoly p).

Theorem g_intersects_boxes (a b : gshape) : built a -> built b ->
  g_intersects a b = true -> rect_intersects_rect (g_rect a) (g_rect b) = true.
Proof.
  intros Ba Bb. destruct Ba as [p|r|ps|p]; destruct Bb as [q|s|qs|q]; cbn [g_intersects g_rect].
  - intros H. apply pt_eqb_eq in H. subst q. rect_lia.
  - unfold point_intersects_rect. intros H. rewrite rect_intersects_rect_sym. apply rir_point_in. exact H.
  - unfold point_intersects_line. intros H. rewrite rect_intersects_rect_sym. apply rir_point_in. apply line_point_in_rect. exact H.
  - unfold point_intersects_poly. intros H. rewrite rect_intersects_rect_sym. apply poly_point_boxes. exact H.
  - apply rir_point_in.
  - trivial.
  - unfold rect_intersects_line. intros H. apply (ring_intersects_line_boxes (RR r) _ _ H).
  - unfold rect_intersects_poly, poly_intersects_rect. intros H. apply poly_intersects_poly_boxes in H.
    rewrite rect_intersects_rect_sym. exact H.
  - intros H. apply rir_point_in. apply line_point_in_rect. exact H.
  - unfold line_intersects_rect. intros H. rewrite rect_intersects_rect_sym. apply (ring_intersects_line_boxes (RR s) _ _ H).
  - rewrite line_intersects_line_eq. rewrite !andb_true_iff. intros [[_ H] _]. exact H.
  - unfold line_intersects_poly. intros H. rewrite rect_intersects_rect_sym. apply poly_intersects_line_boxes. exact H.
  - apply poly_point_boxes.
  - unfold poly_intersects_rect. apply poly_intersects_poly_boxes.
  - apply poly_intersects_line_boxes.
  - apply poly_intersects_poly_boxes.
Qed.

Lemma leaf_geom_built (o : obj) (g : gshape) : leaf_geom o = Some g -> built g.
Proof. destruct o; cbn [leaf_geom]; intros H; inversion H; constructor. Qed.

Lemma in_rectb_contains (r : rect) (p : pt) : in_rectb r p = rect_contains_point r p.
Proof. symmetry. apply rect_contains_point_spec. Qed.

Lemma pos_in_rect (o : obj) (p : pt) : obj_wf o -> In p (positions o) -> inbox (o_rect o) p.
Proof. intros Hw Hp. rewrite (o_rect_spec o Hw (pos_nonempty o p Hp)). exact (bbox_inbox (positions o) p Hp). Qed.

Lemma rect_of_positions (R : rect) (o : obj) : obj_wf o -> o_empty o = false ->
  (forall p, In p (positions o) -> inbox R p) -> rect_contains_rect R (o_rect o) = true.
Proof. intros Hw He H. rewrite (o_rect_spec o Hw He). apply bbox_in_rect; [apply nonempty_has_position, He|exact H]. Qed.

(* Rect() is monotone in the occupied positions *)
Lemma o_rect_incl (b g : obj) : obj_wf b -> obj_wf g -> o_empty g = false -> incl (positions g) (positions b) ->
  rect_contains_rect (o_rect b) (o_rect g) = true.
Proof. intros Hb Hg Eg Hsub. apply (rect_of_positions _ g Hg Eg). intros p Hp. apply (pos_in_rect b p Hb), Hsub, Hp. Qed.

Lemma child_rect_in_coll (k : Z) (cs : list obj) (c : obj) :
  obj_wf (OColl k cs) -> In c cs -> o_empty c = false ->
  rect_contains_rect (o_rect (OColl k cs)) (o_rect c) = true.
Proof.
  intros Hw Hin He. apply (o_rect_incl _ c Hw (obj_wf_child k cs c Hw Hin) He).
  intros p Hp. cbn [positions]. apply in_flat_map. exists c. split; assumption.
Qed.

Lemma for_each_wf (b : obj) : obj_wf b -> forall g, In g (for_each b) -> obj_wf g.
Proof.
  induction b as [p|p|r|ps|rs|b IH|k cs IH] using obj_ind'; intros Hw g Hg; cbn [for_each] in Hg;
    try (destruct Hg as [<-|[]]; exact Hw).
  apply in_flat_map in Hg. destruct Hg as (c & Hc & Hg). rewrite Forall_forall in IH.
  apply (IH c Hc (obj_wf_child k cs c Hw Hc) g Hg).
Qed.

Lemma for_each_part_wf (b : obj) : obj_wf b -> forall g, In g (for_each_part b) -> obj_wf g.
Proof.
  induction b as [p|p|r|ps|rs|b IH|k cs IH] using obj_ind'; intros Hw g Hg; cbn [for_each_part] in Hg;
    try (destruct Hg as [<-|[]]; exact Hw).
  - destruct (ends_in_coll b); [exact (IH Hw g Hg)|destruct Hg as [<-|[]]; exact Hw].
  - apply in_flat_map in Hg. destruct Hg as (c & Hc & Hg). rewrite Forall_forall in IH.
    apply (IH c Hc (obj_wf_child k cs c Hw Hc) g Hg).
Qed.

(* a non-empty part of an object lies inside the object's rectangle: for the parts of ForEach ... *)
Lemma part_rect_in_obj (b geom : obj) : obj_wf b -> In geom (for_each b) -> o_empty geom = false ->
  rect_contains_rect (o_rect b) (o_rect geom) = true.
Proof.
  intros Hw Hin He. apply (o_rect_incl b geom Hw (for_each_wf b Hw geom Hin) He).
  intros p Hp. rewrite <- positions_for_each. apply in_flat_map. exists geom. split; assumption.
Qed.

(* ... and for those used by collection.Contains (Features of collections looked through) *)
Lemma part_c_rect_in_obj (b : obj) : forall geom, obj_wf b -> In geom (for_each_part b) -> o_empty geom = false ->
  rect_contains_rect (o_rect b) (o_rect geom) = true /\ obj_wf geom.
Proof.
  intros geom Hw Hin He. pose proof (for_each_part_wf b Hw geom Hin) as Hwg. split; [|exact Hwg].
  apply (o_rect_incl b geom Hw Hwg He).
  intros p Hp. rewrite <- positions_for_each_part. apply in_flat_map. exists geom. split; assumption.
Qed.

(* Spatial().IntersectsX(g): receiver tree b, geometry g *)
Lemma o_intersects_g_boxes (b : obj) : forall g, obj_wf b -> built g ->
  o_intersects_g b g = true -> rect_intersects_rect (o_rect b) (g_rect g) = true.
Proof.
  induction b as [o go Hl|b IH|k cs IH] using obj_leaf_ind; intros g Hw Bg H.
  - rewrite (leaf_o_intersects_g o go g Hl) in H. rewrite <- (leaf_g_rect o go Hl).
    apply (g_intersects_boxes go g (leaf_geom_built o go Hl) Bg H).
  - apply (IH g Hw Bg H).
  - cbn [o_intersects_g] in H. apply visit_some in H. destruct H as (c & Hc & He & Hr & _).
    apply (rects_meet_mono _ (o_rect c) _ (g_rect g)); [|apply rcr_refl|exact Hr].
    apply (child_rect_in_coll k cs c Hw Hc He).
Qed.

Theorem o_intersects_boxes (a : obj) : forall b, obj_wf a -> obj_wf b ->
  o_intersects a b = true -> rect_intersects_rect (o_rect a) (o_rect b) = true.
Proof.
  induction a as [o go Hl|a IH|k cs IH] using obj_leaf_ind; intros b Hwa Hwb H.
  - rewrite (leaf_o_intersects o go b Hl) in H. rewrite rect_intersects_rect_sym, <- (leaf_g_rect o go Hl).
    apply (o_intersects_g_boxes b go Hwb (leaf_geom_built o go Hl) H).
  - apply (IH b Hwa Hwb H).
  - apply coll_intersects_spec in H. destruct H as (c & geom & Hc & Hg & He & Hge & Hr & _).
    apply (rects_meet_mono _ (o_rect c) _ (o_rect geom)); [| |exact Hr].
    + apply (child_rect_in_coll k cs c Hwa Hc He).
    + apply (part_rect_in_obj b geom Hwb Hg Hge).
Qed.

(* C10, for object trees whose rectangles are well formed (obj_wf): a collection intersects X iff some
   non-empty child intersects some non-empty part of X — the rectangle pre-filter of Search is implied *)
Theorem coll_intersects_iff (k : Z) (cs : list obj) (x : obj) :
  obj_wf (OColl k cs) -> obj_wf x ->
  (o_intersects (OColl k cs) x = true <->
   exists c p, In c cs /\ In p (for_each x) /\ o_empty c = false /\ o_empty p = false /\ o_intersects c p = true).
Proof.
  intros Hw Hwx. rewrite coll_intersects_spec. split.
  - intros (c & p & H1 & H2 & H3 & H4 & _ & H6). exists c, p. auto.
  - intros (c & p & H1 & H2 & H3 & H4 & H5). exists c, p. repeat split; try assumption.
    apply o_intersects_boxes; try assumption.
    + apply (obj_wf_child k cs c Hw H1).
    + apply (for_each_wf x Hwx p H2).
Qed.

Print Assumptions g_intersects_boxes.
Print Assumptions o_intersects_boxes.
Print Assumptions coll_intersects_iff.
