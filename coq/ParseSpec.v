(* ParseSpec.v — property C07, both clauses as theorems against the independent
   specification JsonSpec.class_doc, under the model of Parse.
   Rejection (defect_rejected): every document classified as having a listed
   structural defect (not an object, missing / non-string / unknown type,
   missing required member or one that is not an array, a position with fewer
   than two ordinates or a non-numeric value among its first four, a line with
   fewer than two positions, a ring with fewer than four positions or not
   closed, a polygon with no ring, or any such defect in a nested object) is
   rejected, under every option set.
   Decoding (wf_accepted): every document classified as well formed is accepted
   under the default representation options and decoded to the kind tree and
   the x,y the specification reads, provided the dimensionality rule of the
   coordinate parsers does not bite ([nomix]: no later position has more
   ordinates than a two-ordinate first position). *)
From GJ Require Import Base JsonConst Json JsonSpec JsonProofs RoundTrip ParsedForm JsonExec.
Open Scope Z_scope.

Lemma class_all_defect (l : list sclass) : class_all l = inr true -> In DEFECT l.
Proof.
  induction l as [|c r IH]; [discriminate|]. cbn [class_all].
  destruct c as [t| |]; [|intros _; left; reflexivity|];
    destruct (class_all r) as [[ts|]|[|]]; intros H; try discriminate; right; apply IH; reflexivity.
Qed.

Lemma class_all_wf {A} (f : A -> sclass) (l : list A) (ts : list gobj) :
  class_all (map f l) = inl (Some ts) -> Forall2 (fun x t => f x = WF t) l ts.
Proof.
  revert ts. induction l as [|x l IH]; intros ts H; cbn [map class_all] in H.
  - inversion H. constructor.
  - destruct (f x) as [t| |] eqn:E; destruct (class_all (map f l)) as [[ts'|]|[|]]; try discriminate.
    inversion H; subst. constructor; [exact E|apply IH; reflexivity].
Qed.

Definition okv (allow : bool) (x : jv) : bool :=
  is_num x || (allow && match x with JNull => true | _ => false end) || match x with JNum _ _ => true | _ => false end.

Lemma take_nums_none (allow : bool) (n : nat) (l : list jv) : forallb (okv allow) (firstn n l) = false -> take_nums allow n l = None.
Proof.
  intros H. rewrite take_nums_eq, (forallb_eq (numv allow) (okv allow)), H; [reflexivity|].
  intros x. destruct x as [| | |r f|r d|l0|ms], allow; try reflexivity; symmetry; apply orb_true_r.
Qed.

(* what a defective position is, in the parsers' terms *)
Definition bad_nums (allow : bool) (l : list jv) : Prop :=
  take_nums allow 4 l = None \/ exists t, take_nums allow 4 l = Some t /\ (length t < 2)%nat.

Lemma position_defect (allow : bool) (v : jv) : class_position allow v = DEFECT -> exists l, v = JArr l /\ bad_nums allow l.
Proof.
  destruct v as [| | |r f|r d|l|ms]; try discriminate. cbn [class_position]. cbv zeta. intros H. exists l. split; [reflexivity|].
  destruct (length l <? 2)%nat eqn:El.
  - apply Nat.ltb_lt in El. unfold bad_nums. destruct (take_nums allow 4 l) as [t|] eqn:E; [right|left; reflexivity].
    exists t. split; [reflexivity|]. rewrite (take_nums_length allow 4 l t E). lia.
  - destruct (negb (forallb _ (firstn 4 l))) eqn:Eb.
    + left. apply take_nums_none. apply negb_true_iff in Eb. exact Eb.
    + destruct (forallb is_num l && (length l <=? 4)%nat); discriminate.
Qed.

Lemma bad_point_coords (top : bool) (l : list jv) : bad_nums true l -> exists c, parse_point_coords top (Some (JArr l)) = RErr c.
Proof.
  intros H. rewrite point_coords_arr. destruct H as [->|(t & -> & Ht)]; [eexists; reflexivity|].
  destruct t as [|x [|y r]]; try (eexists; reflexivity). cbn [length] in Ht. lia.
Qed.

Lemma bad_pos_step (mixed arr : bool) (st : list fpt * option extra * bool) (l : list jv) :
  bad_nums false l -> exists c, pos_step mixed arr (ROk st) (JArr l) = RErr c.
Proof.
  intros H. destruct st as [[pts ex] f]. rewrite pos_step_eq. cbn [is_array negb elems]. rewrite andb_false_r.
  destruct H as [->|(t & -> & Ht)]; [eexists; reflexivity|].
  destruct t as [|x [|y r]]; try (eexists; reflexivity). cbn [length] in Ht. lia.
Qed.

Lemma pos_fold_defect (mixed arr : bool) (l : list jv) (st : res (list fpt * option extra * bool)) :
  In DEFECT (map (class_position false) l) -> exists c, fold_left (pos_step mixed arr) l st = RErr c.
Proof.
  intros H. apply in_map_iff in H. destruct H as (v & Hv & Hin). destruct (position_defect false v Hv) as (l' & -> & Hb).
  apply (fold_res_fails (pos_step mixed arr) (fun c a => eq_refl) l (JArr l') Hin). intros s. exact (bad_pos_step mixed arr s l' Hb).
Qed.

Definition pos_xy (v : jv) : fpt :=
  match elems v with a :: b :: _ => (num_of a, num_of b) | _ => (FNull, FNull) end.

Lemma take_nums_two (allow : bool) (n : nat) (l : list jv) (x y : fnum) (r : list fnum) :
  take_nums allow n l = Some (x :: y :: r) -> match l with a :: b :: _ => x = num_of a /\ y = num_of b | _ => False end.
Proof.
  intros H. destruct (take_nums_some _ _ _ _ H) as [E _]. destruct n as [|[|n]], l as [|a [|b l]]; try discriminate.
  inversion E. split; reflexivity.
Qed.

Lemma pos_step_shape (mixed arr : bool) (v : jv) (s s' : list fpt * option extra * bool) :
  pos_step mixed arr (ROk s) v = ROk s' -> fst (fst s') = pos_xy v :: fst (fst s).
Proof.
  destruct s as [[pts ex] f]. intros H. destruct (pos_step_ok _ _ _ _ _ _ _ H) as (x & y & more & ex' & E & _ & ->). cbn [fst].
  pose proof (take_nums_two false 4 (elems v) x y more E) as Hxy. unfold pos_xy.
  destruct (elems v) as [|a [|b l]]; try contradiction. destruct Hxy as [-> ->]. reflexivity.
Qed.

Lemma pos_fold_shape (mixed arr : bool) (l : list jv) pts ex f pts' ex' f' :
  fold_left (pos_step mixed arr) l (ROk (pts, ex, f)) = ROk (pts', ex', f') -> pts' = rev (map pos_xy l) ++ pts.
Proof.
  apply (fold_res_all (pos_step mixed arr) (fun c a => eq_refl) (fun done s1 => fst (fst s1) = rev (map pos_xy done) ++ pts)); [|reflexivity].
  intros done s1 a s2 E Ea. rewrite (pos_step_shape _ _ _ _ _ Ea), E, map_app, rev_app_distr. reflexivity.
Qed.

Lemma line_coords_shape (top : bool) (l : list jv) ps ex :
  parse_line_coords top (Some (JArr l)) = ROk (ps, ex) -> ps = map pos_xy l.
Proof.
  intros H. destruct (line_coords_ok _ _ _ _ H) as (pts & f & E & ->).
  rewrite (pos_fold_shape _ _ _ _ _ _ _ _ _ E), app_nil_r, rev_involutive. reflexivity.
Qed.

Definition ring_pts (r : jv) : list fpt := map pos_xy (elems r).

Lemma ring_step_shape (ring : jv) (s s' : list (list fpt) * option extra * bool) :
  ring_step (ROk s) ring = ROk s' -> fst (fst s') = ring_pts ring :: fst (fst s).
Proof.
  destruct s as [[rings ex] f]. intros H. destruct (ring_step_ok _ _ _ _ _ H) as (pts & e & f1 & E & ->).
  rewrite (pos_fold_shape _ _ _ _ _ _ _ _ _ E), app_nil_r, rev_involutive. reflexivity.
Qed.

Lemma ring_fold_shape (l : list jv) rings ex f rings' ex' f' :
  fold_left ring_step l (ROk (rings, ex, f)) = ROk (rings', ex', f') -> rings' = rev (map ring_pts l) ++ rings.
Proof.
  apply (fold_res_all ring_step (fun c a => eq_refl) (fun done s1 => fst (fst s1) = rev (map ring_pts done) ++ rings)); [|reflexivity].
  intros done s1 a s2 E Ea. rewrite (ring_step_shape _ _ _ Ea), E, map_app, rev_app_distr. reflexivity.
Qed.

Lemma poly_coords_shape (top : bool) (l : list jv) rings ex :
  parse_poly_coords top (Some (JArr l)) = ROk (rings, ex) -> rings = map ring_pts l.
Proof.
  intros H. destruct (poly_coords_ok _ _ _ _ H) as (rs & f & E & ->).
  rewrite (ring_fold_shape _ _ _ _ _ _ _ E), app_nil_r, rev_involutive. reflexivity.
Qed.

(* the specification reads the same points, from positions of two to four finite numbers *)
Definition wfpos (l : list jv) : Prop := (2 <= length l <= 4)%nat /\ forallb is_num l = true.

Lemma position_wf (allow : bool) (v : jv) (t : gobj) : class_position allow v = WF t ->
  exists l, v = JArr l /\ wfpos l /\ t = JPoint (pos_xy v) None.
Proof.
  destruct v as [| | |r f|r d|l|ms]; try discriminate. cbn [class_position]. cbv zeta.
  destruct (length l <? 2)%nat eqn:El; [discriminate|]. destruct (negb _); [discriminate|].
  destruct (forallb is_num l) eqn:En; [|discriminate]. destruct (length l <=? 4)%nat eqn:E4; [|discriminate].
  cbn [andb]. intros H. inversion H; subst. exists l. apply Nat.ltb_ge in El. apply Nat.leb_le in E4.
  split; [reflexivity|]. split; [split; [lia|exact En]|]. unfold pos_xy. cbn [elems].
  destruct l as [|a [|b l]]; cbn [length] in El; try lia. reflexivity.
Qed.

Definition wfposv (p : jv) : Prop := exists l, p = JArr l /\ wfpos l.

Lemma class_positions_wf (l : list jv) (ps : list fpt) : class_positions (JArr l) = inl (Some ps) ->
  Forall wfposv l /\ ps = map pos_xy l.
Proof.
  cbn [class_positions]. destruct (class_all (map (class_position false) l)) as [[ts|]|b] eqn:E; try discriminate.
  intros H. inversion H; subst. pose proof (class_all_wf _ _ _ E) as F. clear E H.
  induction F as [|x t l ts Hx F [IH1 IH2]]; [split; [constructor|reflexivity]|].
  destruct (position_wf false x t Hx) as (lx & -> & Hw & ->). split; [constructor; [exists lx; split; [reflexivity|exact Hw]|exact IH1]|].
  cbn [map pt_of]. rewrite IH2. reflexivity.
Qed.

Lemma ring_ok_short (ps : list fpt) : (length ps < 4)%nat -> ring_ok ps = false.
Proof. intros H. unfold ring_ok. apply Nat.leb_gt in H. rewrite H. reflexivity. Qed.

Lemma Forall2_len {A B} (R : A -> B -> Prop) (l : list A) (m : list B) : Forall2 R l m -> length l = length m.
Proof. induction 1; cbn [length]; congruence. Qed.

Lemma line_defect (v : jv) : class_line v = DEFECT ->
  exists l, v = JArr l /\ (In DEFECT (map (class_position false) l) \/ (length l < 2)%nat).
Proof.
  unfold class_line. destruct v as [| | |r f|r d|l|ms]; cbn [class_positions]; try discriminate.
  destruct (class_all (map (class_position false) l)) as [[ts|]|[|]] eqn:E; intros H; exists l; (split; [reflexivity|]).
  - rewrite map_length in H. pose proof (class_all_wf _ _ _ E) as F. apply Forall2_len in F.
    destruct (length ts <? 2)%nat eqn:El; [|discriminate]. apply Nat.ltb_lt in El. right. lia.
  - destruct (length l <? 2)%nat eqn:El; [|discriminate]. apply Nat.ltb_lt in El. right. exact El.
  - left. apply class_all_defect. exact E.
  - destruct (length l <? 2)%nat eqn:El; [|discriminate]. apply Nat.ltb_lt in El. right. exact El.
Qed.

Lemma line_defect_rejected (top : bool) (v : jv) : class_line v = DEFECT ->
  match parse_line_coords top (Some v) with
  | ROk (ps, _) => (length ps < 2)%nat
  | RErr _ => True
  end.
Proof.
  intros H. destruct (line_defect v H) as (l & -> & [Hd|Hl]).
  - rewrite line_coords_arr. destruct (pos_fold_defect MIXED_OK true l (ROk ([], None, true)) Hd) as [c ->]. exact I.
  - destruct (parse_line_coords top (Some (JArr l))) as [[ps ex]|c] eqn:E; [|exact I].
    rewrite (line_coords_shape top l ps ex E), map_length. exact Hl.
Qed.

Lemma ring_defect (r : jv) : class_ring r = DEFECT ->
  exists l, r = JArr l /\ (In DEFECT (map (class_position false) l) \/ ring_ok (map pos_xy l) = false).
Proof.
  unfold class_ring. destruct r as [| | |r0 f|r0 d|l|ms]; try (cbn [class_positions]; discriminate).
  destruct (class_positions (JArr l)) as [[ps|]|[|]] eqn:E; intros H; exists l; (split; [reflexivity|]).
  - rewrite (proj2 (class_positions_wf l ps E)) in H. destruct (ring_ok (map pos_xy l)); [discriminate|]. right. reflexivity.
  - discriminate H.
  - left. cbn [class_positions] in E. destruct (class_all (map (class_position false) l)) as [[ts|]|[|]] eqn:E2; try discriminate.
    apply class_all_defect. exact E2.
  - destruct (length l <? 4)%nat eqn:El; [|discriminate]. apply Nat.ltb_lt in El. right. apply ring_ok_short. rewrite map_length. exact El.
Qed.

Lemma ring_fold_defect (l : list jv) (st : res (list (list fpt) * option extra * bool)) (lr : list jv) :
  In (JArr lr) l -> In DEFECT (map (class_position false) lr) -> exists c, fold_left ring_step l st = RErr c.
Proof.
  intros Hin Hd. apply (fold_res_fails ring_step (fun c a => eq_refl) l (JArr lr) Hin). intros [[rings ex] f].
  rewrite ring_step_arr. destruct (pos_fold_defect MIXED_OK false lr (ROk ([], ex, f)) Hd) as [c ->]. exists c. reflexivity.
Qed.

Lemma polygon_defect_rejected (top : bool) (v : jv) : class_polygon v = DEFECT ->
  match parse_poly_coords top (Some v) with
  | ROk (rings, _) => rings = [] \/ forallb ring_ok rings = false
  | RErr _ => True
  end.
Proof.
  unfold class_polygon. destruct v as [| | |r0 f|r0 d|l|ms]; try discriminate.
  destruct l as [|r1 l1].
  - intros _. destruct (parse_poly_coords top (Some (JArr []))) as [[rings ex]|c] eqn:E; [|exact I].
    left. exact (poly_coords_shape top [] rings ex E).
  - set (l := r1 :: l1). destruct (class_all (map class_ring l)) as [[ts|]|[|]] eqn:E; try discriminate. intros _.
    apply class_all_defect in E. apply in_map_iff in E. destruct E as (r & Hr & Hin).
    destruct (ring_defect r Hr) as (lr & -> & [Hd|Hok]).
    + rewrite poly_coords_arr. destruct (ring_fold_defect l (ROk ([], None, true)) lr Hin Hd) as [c ->]. exact I.
    + destruct (parse_poly_coords top (Some (JArr l))) as [[rings ex]|c] eqn:Ep; [|exact I]. right.
      rewrite (poly_coords_shape top l rings ex Ep).
      apply Bool.not_true_is_false. intros Hall. rewrite forallb_forall in Hall.
      assert (Hi : In (ring_pts (JArr lr)) (map ring_pts l)) by (apply in_map; exact Hin).
      specialize (Hall _ Hi). unfold ring_pts in Hall. cbn [elems] in Hall. congruence.
Qed.

Lemma multi_defect (k : Z) (f : jv -> sclass) (v : jv) : class_multi k f v = DEFECT ->
  is_array v = false \/ exists l c, v = JArr l /\ In c l /\ f c = DEFECT.
Proof.
  unfold class_multi. destruct v as [| | |r0 x|r0 d|l|ms]; try (intros _; left; reflexivity).
  destruct (class_all (map f l)) as [[ts|]|[|]] eqn:E; try discriminate. intros _. right.
  apply class_all_defect in E. apply in_map_iff in E. destruct E as (c & Hc & Hin). exists l, c. repeat split; assumption.
Qed.

Lemma child_point_defect (c : jv) : class_position true c = DEFECT -> exists e, child_point c = RErr e.
Proof.
  intros Hc. destruct (position_defect true c Hc) as (lc & -> & Hb). unfold child_point.
  destruct (bad_point_coords false lc Hb) as [e ->]. eexists; reflexivity.
Qed.

Lemma child_line_defect (c : jv) : class_line c = DEFECT -> exists e, child_line c = RErr e.
Proof.
  intros Hc. pose proof (line_defect_rejected false c Hc) as Hr. unfold child_line.
  destruct (parse_line_coords false (Some c)) as [[ps ex]|e]; [|eexists; reflexivity].
  apply Nat.ltb_lt in Hr. rewrite Hr. eexists; reflexivity.
Qed.

Lemma child_poly_defect (c : jv) : class_polygon c = DEFECT -> exists e, child_poly c = RErr e.
Proof.
  intros Hc. pose proof (polygon_defect_rejected false c Hc) as Hr. unfold child_poly.
  destruct (parse_poly_coords false (Some c)) as [[rings ex]|e]; [|eexists; reflexivity].
  destruct Hr as [->|Hr]; [eexists; reflexivity|]. destruct rings as [|ext holes]; [eexists; reflexivity|].
  rewrite Hr. eexists; reflexivity.
Qed.

Lemma coll_defect_rejected (rec : jv -> pres) (o : popts) (k kk : Z) (ks : pkeys) (f : jv -> sclass) :
  (forall c, f c = DEFECT -> exists e, coll_child rec k c = RErr e) ->
  match coll_src k ks with None => DEFECT | Some m => class_multi kk f m end = DEFECT ->
  exists c, parse_coll rec o k ks = PErr c.
Proof.
  intros Hf H. unfold parse_coll. destruct (coll_src k ks) as [m|]; [|eexists; reflexivity].
  destruct (multi_defect kk _ m H) as [Ea|(lm & c & -> & Hin & Hc)]; [rewrite Ea; eexists; reflexivity|].
  cbn [is_array negb elems]. destruct (map_until _ lm) as [kids|c'] eqn:Ek; [|eexists; reflexivity]. exfalso.
  destruct (map_until_ok_all _ _ _ Ek c Hin) as [y Hy]. destruct (Hf c Hc) as [e He]. rewrite He in Hy. discriminate.
Qed.

(* once the type string is known to be one literal, the branch is known *)
Ltac type_is E K :=
  apply bytes_eqb_eq in E; subst; match goal with |- context [tkind_of ?s] => change (tkind_of s) with (Some K) end; cbv iota; cbn [parse_kind].

(* C07, the rejection clause: a listed structural defect is rejected, whatever the options *)
Theorem defect_rejected (fuel : nat) : forall (o : popts) (one : Z) (v : jv),
  class_doc fuel v = DEFECT -> exists c, parse fuel o one v = PErr c.
Proof.
  induction fuel as [|f IH]; intros o one v H; [discriminate|].
  cbn [class_doc] in H. destruct v as [| | |raw x|raw d|l|ms]; try (eexists; reflexivity).
  rewrite parse_eq, scan_keys_eq. unfold parse_obj. cbn [k_type].
  destruct (last_member s_type ms) as [tv|]; [|eexists; reflexivity].
  destruct tv as [| | |r0 x0|traw t|l0|ms0]; try (eexists; reflexivity).
  cbv zeta in H. revert H.
  assert (Hdoc : forall c, class_doc f c = DEFECT -> exists e, coll_child (parse f o one) 3 c = RErr e).
  { intros c Hc. destruct (IH o one c Hc) as [e He]. exists e. change (pres_res (parse f o one c) = RErr e). rewrite He. reflexivity. }
  destruct (bytes_eqb t s_Point) eqn:E1.
  { type_is E1 TPoint. intros H. unfold parse_pt. cbn [k_coords]. destruct (last_member s_coordinates ms) as [m|]; [|eexists; reflexivity].
    destruct (is_array m) eqn:Ea.
    - destruct (position_defect true m H) as (lm & -> & Hb). destruct (bad_point_coords true lm Hb) as [c ->]. eexists; reflexivity.
    - unfold parse_point_coords. rewrite Ea. eexists; reflexivity. }
  destruct (bytes_eqb t s_LineString) eqn:E2.
  { type_is E2 TLine. intros H. unfold parse_ln. cbn [k_coords]. destruct (last_member s_coordinates ms) as [m|]; [|eexists; reflexivity].
    destruct (is_array m) eqn:Ea.
    - pose proof (line_defect_rejected true m H) as Hr. destruct (parse_line_coords true (Some m)) as [[ps ex]|c]; [|eexists; reflexivity].
      apply Nat.ltb_lt in Hr. rewrite Hr. eexists; reflexivity.
    - unfold parse_line_coords. rewrite Ea. eexists; reflexivity. }
  destruct (bytes_eqb t s_Polygon) eqn:E3.
  { type_is E3 TPoly. intros H. unfold parse_pg. cbn [k_coords]. destruct (last_member s_coordinates ms) as [m|]; [|eexists; reflexivity].
    destruct (is_array m) eqn:Ea.
    - pose proof (polygon_defect_rejected true m H) as Hr. destruct (parse_poly_coords true (Some m)) as [[rings ex]|c]; [|eexists; reflexivity].
      destruct Hr as [->|Hr]; [eexists; reflexivity|]. destruct rings as [|ext holes]; [eexists; reflexivity|].
      rewrite Hr. eexists; reflexivity.
    - unfold parse_poly_coords. rewrite Ea. eexists; reflexivity. }
  destruct (bytes_eqb t s_MultiPoint) eqn:E5.
  { type_is E5 (TColl 0). intros H. apply (coll_defect_rejected _ o 0 0 _ (class_position true)); [exact child_point_defect|exact H]. }
  destruct (bytes_eqb t s_MultiLineString) eqn:E6.
  { type_is E6 (TColl 1). intros H. apply (coll_defect_rejected _ o 1 1 _ class_line); [exact child_line_defect|exact H]. }
  destruct (bytes_eqb t s_MultiPolygon) eqn:E7.
  { type_is E7 (TColl 2). intros H. apply (coll_defect_rejected _ o 2 2 _ class_polygon); [exact child_poly_defect|exact H]. }
  destruct (bytes_eqb t s_GeometryCollection) eqn:E8.
  { type_is E8 (TColl 3). intros H. apply (coll_defect_rejected _ o 3 3 _ (class_doc f)); [exact Hdoc|exact H]. }
  destruct (bytes_eqb t s_FeatureCollection) eqn:E9.
  { type_is E9 (TColl 4). intros H. apply (coll_defect_rejected _ o 4 4 _ (class_doc f)); [exact Hdoc|exact H]. }
  destruct (bytes_eqb t s_Feature) eqn:E4.
  { type_is E4 TFeature. intros H. unfold parse_ft. cbn [k_geom]. destruct (last_member s_geometry ms) as [gv|]; [|eexists; reflexivity].
    destruct (match get2 s_properties s_type ms with Some tv => bytes_eqb (str_of tv) s_Circle | None => false end); [discriminate|].
    destruct gv as [| | |r1 x1|r1 d1|l1|ms1]; try discriminate.
    destruct (class_doc f (JObj ms1)) as [t'| |] eqn:Ec; try discriminate.
    destruct (IH o one (JObj ms1) Ec) as [c ->]. eexists; reflexivity. }
  intros _. unfold tkind_of. rewrite E1, E2, E3, E4, E5, E6, E7, E8, E9. eexists; reflexivity.
Qed.


(* the dimensionality rule of the coordinate parsers, as a predicate on the
   document: [s] = z/m values are being kept, [first] = no position read yet.
   A position is taken when values are kept, or it is the first, or it has
   exactly two ordinates (finding F6: a later position with more ordinates than
   a two-ordinate first position is rejected; TestIssue714 pins that) *)
Definition plen (v : jv) : nat := length (elems v).
Fixpoint seq_ok (s first : bool) (l : list jv) : bool :=
  match l with
  | [] => true
  | p :: r => (s || first || (plen p =? 2)%nat) && seq_ok (s || (first && (2 <? plen p)%nat)) false r
  end.
Fixpoint seq_end (s first : bool) (l : list jv) : bool * bool :=
  match l with
  | [] => (s, first)
  | p :: r => seq_end (s || (first && (2 <? plen p)%nat)) false r
  end.
Fixpoint rings_ok (s first : bool) (rs : list jv) : bool :=
  match rs with
  | [] => true
  | r :: rest => seq_ok s first (elems r) && rings_ok (fst (seq_end s first (elems r))) false rest
  end.

Definition is_some {A} (x : option A) : bool := match x with Some _ => true | None => false end.

(* one step of the position loop on a well-formed position: its x,y are taken; its further ordinates are
   appended (padded or cut) when values are kept, declare the dimensionality when it is the first position,
   and are otherwise dropped or refused *)
Lemma pos_step_wfpos (mixed arr : bool) (pts : list fpt) (ex : option extra) (first : bool) (l : list jv) : wfpos l ->
  pos_step mixed arr (ROk (pts, ex, first)) (JArr l) =
  match next_extra mixed ex first (map num_of (skipn 2 l)) with
  | Some ex' => ROk (pos_xy (JArr l) :: pts, ex', false)
  | None => RErr E_CoordsInvalid
  end.
Proof.
  intros [[L2 L4] Hn]. rewrite pos_step_eq. cbn [is_array negb elems]. rewrite andb_false_r, (take_nums_isnum false 4 l Hn), firstn_all2 by lia.
  destruct l as [|a [|b l2]]; cbn [length] in L2; try lia. reflexivity.
Qed.

Lemma pos_step_wf (arr : bool) (pts : list fpt) (ex : option extra) (first : bool) (l : list jv) :
  wfpos l -> (first = true -> ex = None) ->
  (is_some ex || first || (length l =? 2)%nat) = true ->
  exists ex', pos_step MIXED_OK arr (ROk (pts, ex, first)) (JArr l) = ROk (pos_xy (JArr l) :: pts, ex', false) /\
              is_some ex' = is_some ex || (first && (2 <? length l)%nat).
Proof.
  intros Hw Hf Hacc. rewrite (pos_step_wfpos MIXED_OK arr pts ex first l Hw). destruct Hw as [[L2 _] _].
  destruct ex as [e|]; [eexists; split; reflexivity|]. cbn [is_some orb] in *.
  destruct l as [|a [|b [|c l2]]]; cbn [length] in L2; try lia; cbn [skipn map].
  - eexists. split; [reflexivity|]. rewrite andb_false_r. reflexivity.
  - destruct first; [|discriminate]. eexists. split; reflexivity.
Qed.

Lemma pos_fold_wf (arr : bool) : forall (ps : list jv) (pts : list fpt) (ex : option extra) (first : bool),
  Forall wfposv ps -> (first = true -> ex = None) -> seq_ok (is_some ex) first ps = true ->
  exists ex' f', fold_left (pos_step MIXED_OK arr) ps (ROk (pts, ex, first)) = ROk (rev (map pos_xy ps) ++ pts, ex', f') /\
                 (is_some ex', f') = seq_end (is_some ex) first ps /\ (f' = true -> ex' = None).
Proof.
  induction ps as [|p ps IH]; intros pts ex first Hw Hf Hok.
  - exists ex, first. split; [reflexivity|]. split; [reflexivity|exact Hf].
  - inversion Hw as [|? ? (l & -> & Hl) Hw']; subst. cbn [seq_ok] in Hok. apply andb_true_iff in Hok. destruct Hok as [Hacc Hrest].
    unfold plen in *. cbn [elems] in *.
    destruct (pos_step_wf arr pts ex first l Hl Hf Hacc) as (ex1 & E1 & S1). cbn [fold_left]. rewrite E1.
    rewrite <- S1 in Hrest. destruct (IH (pos_xy (JArr l) :: pts) ex1 false Hw' ltac:(discriminate) Hrest) as (ex' & f' & E & Se & Hn).
    exists ex', f'. split; [|split; [|exact Hn]].
    + rewrite E. cbn [map rev]. rewrite <- app_assoc. reflexivity.
    + cbn [seq_end]. unfold plen. cbn [elems]. rewrite <- S1. exact Se.
Qed.

Lemma line_wf (v : jv) (t : gobj) : class_line v = WF t ->
  exists l, v = JArr l /\ Forall wfposv l /\ (2 <= length l)%nat /\ t = JLine (map pos_xy l) None.
Proof.
  unfold class_line. destruct v as [| | |r f|r d|l|ms]; try (cbn [class_positions]; discriminate).
  destruct (class_positions (JArr l)) as [[ps|]|[|]] eqn:E; try discriminate.
  - destruct (class_positions_wf l ps E) as [Hw ->]. rewrite map_length.
    destruct (length l <? 2)%nat eqn:El; [discriminate|]. apply Nat.ltb_ge in El. intros H. inversion H; subst.
    exists l. repeat split; assumption.
  - destruct (length l <? 2)%nat; discriminate.
Qed.

Lemma ring_wf (v : jv) (t : gobj) : class_ring v = WF t ->
  exists l, v = JArr l /\ Forall wfposv l /\ ring_ok (map pos_xy l) = true /\ t = JLine (map pos_xy l) None.
Proof.
  unfold class_ring. destruct v as [| | |r f|r d|l|ms]; try (cbn [class_positions]; discriminate).
  destruct (class_positions (JArr l)) as [[ps|]|[|]] eqn:E; try discriminate.
  - destruct (class_positions_wf l ps E) as [Hw ->].
    destruct (ring_ok (map pos_xy l)) eqn:Er; [|discriminate]. intros H. inversion H; subst.
    exists l. repeat split; assumption.
  - destruct (length l <? 4)%nat; discriminate.
Qed.

Definition wfringv (r : jv) : Prop := exists l, r = JArr l /\ Forall wfposv l /\ ring_ok (map pos_xy l) = true.

Lemma polygon_wf (v : jv) (t : gobj) : class_polygon v = WF t ->
  exists rs, v = JArr rs /\ rs <> [] /\ Forall wfringv rs /\ t = JPoly (map ring_pts rs) None.
Proof.
  unfold class_polygon. destruct v as [| | |r f|r d|l|ms]; try discriminate. destruct l as [|r1 l1]; [discriminate|].
  set (l := r1 :: l1). destruct (class_all (map class_ring l)) as [[ts|]|[|]] eqn:E; try discriminate.
  intros H. inversion H; subst. exists l. split; [reflexivity|]. split; [discriminate|].
  pose proof (class_all_wf _ _ _ E) as F. clear E H. generalize dependent ts. generalize l. clear l r1 l1.
  induction l as [|x l IH]; intros ts F; inversion F as [|? t0 ? ts0 Hx F']; subst; [split; [constructor|reflexivity]|].
  destruct (IH ts0 F') as [A B]. destruct (ring_wf x t0 Hx) as (lx & -> & Hw & Hr & ->). split.
  - constructor; [exists lx; repeat split; assumption|exact A].
  - cbn [map line_of]. unfold ring_pts at 1. cbn [elems]. inversion B. reflexivity.
Qed.

Lemma ring_step_wf (rings : list (list fpt)) (ex : option extra) (first : bool) (r : jv) :
  wfringv r -> (first = true -> ex = None) -> seq_ok (is_some ex) first (elems r) = true ->
  exists ex', ring_step (ROk (rings, ex, first)) r = ROk (ring_pts r :: rings, ex', false) /\
              is_some ex' = fst (seq_end (is_some ex) first (elems r)).
Proof.
  intros (l & -> & Hw & _) Hf Hok. rewrite ring_step_arr. cbn [elems] in *.
  destruct (pos_fold_wf false l [] ex first Hw Hf Hok) as (ex' & f' & E & Se & _). rewrite E.
  exists ex'. split; [|rewrite <- Se; reflexivity]. rewrite app_nil_r, rev_involutive. reflexivity.
Qed.

Lemma ring_fold_wf : forall (rs : list jv) (rings : list (list fpt)) (ex : option extra) (first : bool),
  Forall wfringv rs -> (first = true -> ex = None) -> rings_ok (is_some ex) first rs = true ->
  exists ex' f', fold_left ring_step rs (ROk (rings, ex, first)) = ROk (rev (map ring_pts rs) ++ rings, ex', f').
Proof.
  induction rs as [|r rs IH]; intros rings ex first Hw Hf Hok.
  - exists ex, first. reflexivity.
  - inversion Hw as [|? ? Hr Hw']; subst. cbn [rings_ok] in Hok. apply andb_true_iff in Hok. destruct Hok as [Hs Hrest].
    destruct (ring_step_wf rings ex first r Hr Hf Hs) as (ex1 & E1 & S1). cbn [fold_left]. rewrite E1.
    rewrite <- S1 in Hrest. destruct (IH (ring_pts r :: rings) ex1 false Hw' ltac:(discriminate) Hrest) as (ex' & f' & E).
    exists ex', f'. rewrite E. cbn [map rev]. rewrite <- app_assoc. reflexivity.
Qed.

Lemma line_coords_wf (top : bool) (l : list jv) : Forall wfposv l -> seq_ok false true l = true ->
  exists ex, parse_line_coords top (Some (JArr l)) = ROk (map pos_xy l, ex).
Proof.
  intros Hw Hok. rewrite line_coords_arr.
  destruct (pos_fold_wf true l [] None true Hw (fun _ => eq_refl) Hok) as (ex' & f' & E & _). rewrite E.
  exists ex'. rewrite app_nil_r, rev_involutive. reflexivity.
Qed.

Lemma poly_coords_wf (top : bool) (rs : list jv) : Forall wfringv rs -> rings_ok false true rs = true ->
  exists ex, parse_poly_coords top (Some (JArr rs)) = ROk (map ring_pts rs, ex).
Proof.
  intros Hw Hok. rewrite poly_coords_arr.
  destruct (ring_fold_wf rs [] None true Hw (fun _ => eq_refl) Hok) as (ex' & f' & E). rewrite E.
  exists ex'. rewrite app_nil_r, rev_involutive. reflexivity.
Qed.

Lemma rings_all_ok (rs : list jv) : Forall wfringv rs -> forallb ring_ok (map ring_pts rs) = true.
Proof.
  intros H. apply forallb_forall. intros x Hx. apply in_map_iff in Hx. destruct Hx as (r & <- & Hr).
  rewrite Forall_forall in H. destruct (H r Hr) as (l & -> & _ & Hok). exact Hok.
Qed.

Lemma find_filter {A} (p q : A -> bool) (l : list A) : (forall x, p x = true -> q x = true) -> find p (filter q l) = find p l.
Proof.
  intros H. induction l as [|x l IH]; [reflexivity|]. cbn [filter find]. destruct (p x) eqn:E.
  - rewrite (H x E). cbn [find]. rewrite E. reflexivity.
  - destruct (q x); [cbn [find]; rewrite E|]; exact IH.
Qed.

Lemma first_member_filter (name : list Z) (ms : list (jkey * jv)) :
  (forall kv, bytes_eqb (snd (fst kv)) name = true -> foreign_key kv = true) ->
  first_member name (filter foreign_key ms) = first_member name ms.
Proof.
  intros Hn. unfold first_member.
  pose proof (find_filter (fun kv : jkey * jv => bytes_eqb (snd (fst kv)) name) foreign_key ms Hn) as E.
  unfold jkey in *. rewrite E. reflexivity.
Qed.

Lemma properties_is_foreign (kv : jkey * jv) : bytes_eqb (snd (fst kv)) s_properties = true -> foreign_key kv = true.
Proof. intros H. apply bytes_eqb_eq in H. unfold foreign_key. cbv zeta. rewrite H. reflexivity. Qed.

Lemma get2_foreign (b : list Z) (ms : list (jkey * jv)) :
  get2 s_properties b (k_foreign (scan_keys ms)) = get2 s_properties b ms.
Proof. rewrite foreign_is_filter. unfold get2. rewrite (first_member_filter s_properties ms properties_is_foreign). reflexivity. Qed.

Lemma not_circle_convention (o : popts) (one : Z) (p : fpt) (ms : list (jkey * jv)) :
  match get2 s_properties s_type ms with Some tv => bytes_eqb (str_of tv) s_Circle | None => false end = false ->
  circle_of o one p (k_foreign (scan_keys ms)) = None.
Proof.
  intros H. unfold circle_of. destruct (disable_circle o); [reflexivity|]. rewrite get2_foreign.
  destruct (get2 s_properties s_type ms) as [tv|]; [|reflexivity]. rewrite H. reflexivity.
Qed.

Lemma multi_build (F : jv -> res gobj) (f : jv -> sclass) (P : jv -> Prop) (l : list jv) (ts : list gobj) :
  Forall P l -> Forall2 (fun c t => f c = WF t) l ts ->
  (forall c t, P c -> f c = WF t -> exists g, F c = ROk g /\ enc_tree g = enc_tree t) ->
  exists kids, map_until F l = ROk kids /\ length kids = length ts /\ flat_map enc_tree kids = flat_map enc_tree ts.
Proof.
  intros HP H2 Hstep. revert HP. induction H2 as [|c t l ts Hc H2 IH]; intros HP.
  - exists []. repeat split.
  - inversion HP as [|? ? Pc HP']; subst. destruct (IH HP') as (kids & Ek & El & Ef).
    destruct (Hstep c t Pc Hc) as (g & Eg & Et). exists (g :: kids). cbn [map_until]. rewrite Eg, Ek.
    repeat split; [cbn [length]; congruence|]. cbn [flat_map]. rewrite Et, Ef. reflexivity.
Qed.

(* the documents on which the dimensionality rule of finding F6 does not bite *)
Fixpoint nomix (fuel : nat) (v : jv) : bool :=
  match fuel with
  | O => true
  | S f =>
      match v with
      | JObj ms =>
          match last_member s_type ms with
          | Some (JStr _ t) =>
              let co := match last_member s_coordinates ms with Some m => m | None => JNull end in
              if bytes_eqb t s_LineString then seq_ok false true (elems co)
              else if bytes_eqb t s_Polygon then rings_ok false true (elems co)
              else if bytes_eqb t s_MultiLineString then forallb (fun c => seq_ok false true (elems c)) (elems co)
              else if bytes_eqb t s_MultiPolygon then forallb (fun c => rings_ok false true (elems c)) (elems co)
              else if bytes_eqb t s_GeometryCollection
                   then match last_member s_geometries ms with Some m => forallb (nomix f) (elems m) | None => true end
              else if bytes_eqb t s_FeatureCollection
                   then match last_member s_features ms with Some m => forallb (nomix f) (elems m) | None => true end
              else if bytes_eqb t s_Feature
                   then match last_member s_geometry ms with Some g => nomix f g | None => true end
              else true
          | _ => true
          end
      | _ => true
      end
  end.

Definition plain (o : popts) : Prop := allow_simple o = false /\ allow_rects o = false /\ require_valid o = false.

Lemma multi_wf (k : Z) (f : jv -> sclass) (v : jv) (t : gobj) : class_multi k f v = WF t ->
  exists l ts, v = JArr l /\ Forall2 (fun c t => f c = WF t) l ts /\ t = JColl k ts None.
Proof.
  unfold class_multi. destruct v as [| | |r0 x|r0 d|l|ms]; try discriminate.
  destruct (class_all (map f l)) as [[ts|]|[|]] eqn:E; try discriminate. intros H. inversion H; subst.
  exists l, ts. repeat split. exact (class_all_wf _ _ _ E).
Qed.

Lemma point_coords_wf (top : bool) (l : list jv) : wfpos l ->
  exists ex, parse_point_coords top (Some (JArr l)) = ROk (pos_xy (JArr l), ex).
Proof.
  intros [[L2 L4] Hn]. unfold pos_xy. cbn [elems]. rewrite point_coords_arr, (take_nums_isnum true 4 l Hn), firstn_all2 by lia.
  destruct l as [|a [|b l2]]; cbn [length] in L2; try lia. cbn [map]. eexists. reflexivity.
Qed.

Lemma child_point_wf (c : jv) (t : gobj) : class_position true c = WF t ->
  exists g, child_point c = ROk g /\ enc_tree g = enc_tree t.
Proof.
  intros Hc. destruct (position_wf true c t Hc) as (lc & -> & Hw & ->). unfold child_point.
  destruct (point_coords_wf false lc Hw) as [ex ->]. eexists. split; reflexivity.
Qed.

Lemma child_line_wf (c : jv) (t : gobj) : seq_ok false true (elems c) = true -> class_line c = WF t ->
  exists g, child_line c = ROk g /\ enc_tree g = enc_tree t.
Proof.
  intros Pc Hc. destruct (line_wf c t Hc) as (lc & -> & Hw & Hlen & ->). cbn [elems] in Pc. unfold child_line.
  destruct (line_coords_wf false lc Hw Pc) as [ex ->]. rewrite map_length.
  assert (El : (length lc <? 2)%nat = false) by (apply Nat.ltb_ge; exact Hlen). rewrite El. eexists. split; reflexivity.
Qed.

Lemma child_poly_wf (c : jv) (t : gobj) : rings_ok false true (elems c) = true -> class_polygon c = WF t ->
  exists g, child_poly c = ROk g /\ enc_tree g = enc_tree t.
Proof.
  intros Pc Hc. destruct (polygon_wf c t Hc) as (rs & -> & Hne & Hw & ->). cbn [elems] in Pc. unfold child_poly.
  destruct (poly_coords_wf false rs Hw Pc) as [ex ->]. rewrite (rings_all_ok rs Hw).
  destruct rs as [|r1 rs1]; [congruence|]. cbn [map]. eexists. split; reflexivity.
Qed.

Lemma coll_wf_accepted (rec : jv -> pres) (o : popts) (k : Z) (ks : pkeys) (f : jv -> sclass) (p : jv -> bool) (t : gobj) :
  require_valid o = false ->
  (forall c t, p c = true -> f c = WF t -> exists g, coll_child rec k c = ROk g /\ enc_tree g = enc_tree t) ->
  match coll_src k ks with None => DEFECT | Some m => class_multi k f m end = WF t ->
  (forall m, coll_src k ks = Some m -> forallb p (elems m) = true) ->
  exists g, parse_coll rec o k ks = POk g /\ enc_tree g = enc_tree t.
Proof.
  intros Hrv Hstep H Hmix. unfold parse_coll. destruct (coll_src k ks) as [m|]; [|discriminate]. specialize (Hmix m eq_refl).
  destruct (multi_wf k _ m t H) as (lm & ts & -> & F2 & ->). cbn [is_array negb elems] in *.
  destruct (multi_build (coll_child rec k) f (fun c => p c = true) lm ts) as (kids & -> & Hl & Hf);
    [apply Forall_forall; apply forallb_forall; exact Hmix|exact F2|exact Hstep|].
  cbv zeta. unfold check. rewrite Hrv. cbn [andb].
  destruct (k <? 3); eexists; (split; [reflexivity|]); cbn [enc_tree]; rewrite Hl, Hf; reflexivity.
Qed.

Theorem wf_accepted (fuel : nat) : forall (o : popts) (one : Z) (v : jv) (t : gobj),
  plain o -> class_doc fuel v = WF t -> nomix fuel v = true ->
  exists g, parse fuel o one v = POk g /\ enc_tree g = enc_tree t.
Proof.
  induction fuel as [|f IH]; intros o one v t Hpl H Hmix; [discriminate|].
  pose proof Hpl as (Hsimple & Hrects & Hrv).
  cbn [class_doc] in H. cbn [nomix] in Hmix.
  destruct v as [| | |raw x|raw d|l|ms]; try discriminate.
  rewrite parse_eq, scan_keys_eq. unfold parse_obj. cbn [k_type].
  destruct (last_member s_type ms) as [tv|]; [|discriminate].
  destruct tv as [| | |r0 x0|traw tn|l0|ms0]; try discriminate.
  cbv zeta in H, Hmix. revert H Hmix.
  assert (Hdoc : forall c t, nomix f c = true -> class_doc f c = WF t ->
                 exists g, coll_child (parse f o one) 3 c = ROk g /\ enc_tree g = enc_tree t).
  { intros c t0 Pc Hc. destruct (IH o one c t0 Hpl Hc Pc) as (g & Eg & Et). exists g. split; [|exact Et].
    change (pres_res (parse f o one c) = ROk g). rewrite Eg. reflexivity. }
  destruct (bytes_eqb tn s_Point) eqn:E1.
  { type_is E1 TPoint. intros H _. unfold parse_pt, check. cbn [k_coords k_foreign]. rewrite Hsimple, Hrv. cbn [andb].
    destruct (last_member s_coordinates ms) as [m|]; [|discriminate].
    destruct (is_array m) eqn:Ea; [|discriminate].
    destruct (position_wf true m t H) as (lm & -> & Hw & ->). destruct (point_coords_wf true lm Hw) as [ex ->]. cbv zeta.
    destruct (with_members _ _); eexists; (split; [reflexivity|]); reflexivity. }
  destruct (bytes_eqb tn s_LineString) eqn:E2.
  { type_is E2 TLine. intros H Hmix. unfold parse_ln, check. cbn [k_coords k_foreign]. rewrite Hrv. cbn [andb].
    destruct (last_member s_coordinates ms) as [m|]; [|discriminate].
    destruct (is_array m) eqn:Ea; [|discriminate].
    destruct (line_wf m t H) as (lm & -> & Hw & Hlen & ->). cbn [elems] in Hmix.
    destruct (line_coords_wf true lm Hw Hmix) as [ex ->]. rewrite map_length.
    assert (El : (length lm <? 2)%nat = false) by (apply Nat.ltb_ge; exact Hlen). rewrite El.
    eexists. split; [reflexivity|]. reflexivity. }
  destruct (bytes_eqb tn s_Polygon) eqn:E3.
  { type_is E3 TPoly. intros H Hmix. unfold parse_pg, check. cbn [k_coords k_foreign]. rewrite Hrects, Hrv. cbn [andb].
    destruct (last_member s_coordinates ms) as [m|]; [|discriminate].
    destruct (is_array m) eqn:Ea; [|discriminate].
    destruct (polygon_wf m t H) as (rs & -> & Hne & Hw & ->). cbn [elems] in Hmix.
    destruct (poly_coords_wf true rs Hw Hmix) as [ex ->].
    destruct rs as [|r1 rs1]; [congruence|]. pose proof (rings_all_ok (r1 :: rs1) Hw) as Hall.
    cbn [map] in Hall |- *. rewrite Hall. cbn [negb]. cbv zeta.
    destruct (with_members ex _); [eexists; split; reflexivity|].
    destruct (map ring_pts rs1); eexists; split; reflexivity. }
  destruct (bytes_eqb tn s_MultiPoint) eqn:E5.
  { type_is E5 (TColl 0). intros H _. apply (coll_wf_accepted _ o 0 _ (class_position true) (fun _ => true)); [exact Hrv| |exact H|].
    - intros c t0 _. apply child_point_wf.
    - intros m _. apply forallb_forall. reflexivity. }
  destruct (bytes_eqb tn s_MultiLineString) eqn:E6.
  { type_is E6 (TColl 1). intros H Hmix.
    apply (coll_wf_accepted _ o 1 _ class_line (fun c => seq_ok false true (elems c))); [exact Hrv|exact child_line_wf|exact H|].
    intros m Em. change (last_member s_coordinates ms = Some m) in Em. rewrite Em in Hmix. exact Hmix. }
  destruct (bytes_eqb tn s_MultiPolygon) eqn:E7.
  { type_is E7 (TColl 2). intros H Hmix.
    apply (coll_wf_accepted _ o 2 _ class_polygon (fun c => rings_ok false true (elems c))); [exact Hrv|exact child_poly_wf|exact H|].
    intros m Em. change (last_member s_coordinates ms = Some m) in Em. rewrite Em in Hmix. exact Hmix. }
  destruct (bytes_eqb tn s_GeometryCollection) eqn:E8.
  { type_is E8 (TColl 3). intros H Hmix. apply (coll_wf_accepted _ o 3 _ (class_doc f) (nomix f)); [exact Hrv|exact Hdoc|exact H|].
    intros m Em. change (last_member s_geometries ms = Some m) in Em. rewrite Em in Hmix. exact Hmix. }
  destruct (bytes_eqb tn s_FeatureCollection) eqn:E9.
  { type_is E9 (TColl 4). intros H Hmix. apply (coll_wf_accepted _ o 4 _ (class_doc f) (nomix f)); [exact Hrv|exact Hdoc|exact H|].
    intros m Em. change (last_member s_features ms = Some m) in Em. rewrite Em in Hmix. exact Hmix. }
  destruct (bytes_eqb tn s_Feature) eqn:E4; [|discriminate].
  type_is E4 TFeature. intros H Hmix. unfold parse_ft. cbn [k_geom k_foreign]. destruct (last_member s_geometry ms) as [gv|].
  2:{ destruct (match get2 s_properties s_type ms with Some tv => _ | None => false end); discriminate. }
  destruct (match get2 s_properties s_type ms with Some tv => bytes_eqb (str_of tv) s_Circle | None => false end) eqn:Ecirc; [discriminate|].
  destruct gv as [| | |r1 x1|r1 d1|l1|ms1]; try discriminate.
  destruct (class_doc f (JObj ms1)) as [t'| |] eqn:Ec; try discriminate. inversion H; subst.
  destruct (IH o one (JObj ms1) t' Hpl Ec Hmix) as (base & -> & Eb).
  rewrite <- foreign_is_filter.
  assert (Hc : circ_of o one base (k_foreign (scan_keys ms)) = None).
  { apply circ_of_none. intros p. apply not_circle_convention. exact Ecirc. }
  rewrite Hc. eexists. split; [reflexivity|]. cbn [enc_tree]. rewrite Eb. reflexivity.
Qed.

Print Assumptions defect_rejected.
Print Assumptions wf_accepted.
