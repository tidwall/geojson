(* ObjSym.v — property C09: A.Intersects(B) = B.Intersects(A) at the OBJECT
   level, for all trees of the eleven modelled kinds (Point, SimplePoint, Rect,
   LineString, Polygon, Feature, the five collections, nested), with
   well-formed rectangles; where a polygon of A faces a polygon of B, both
   must be without holes (no_hole_pair, JordanRect.g_intersects_sym).
   Both answers are shown to be "some leaf of B, as receiver, intersects some
   leaf of A" (flattening through Features, collections and the rectangle
   pre-filter of Search), and the leaf level is symmetric. *)
From GJ Require Import Base Ring PairSpec Pairs PairProofs KernelProofs PipProofs Obj ObjProofs BoxLaws
  JordanRect.
Import ListNotations.
Open Scope Z_scope.

(* emptiness of a shape, as the objects see it *)
Definition s_empty (s : shape) : bool :=
  match s with
  | SPoint _ | SRect _ => false
  | SLine ps => (length ps <? 2)%nat
  | SPoly e _ => (length e <? 3)%nat
  end.

Lemma empty_line_no_point ps p : (length ps <? 2)%nat = true -> line_contains_point_r (Lr ps) p = false.
Proof.
  intros E. apply Nat.ltb_lt in E. rewrite line_intersects_point_spec.
  destruct ps as [|x [|y l]]; cbn in *; try reflexivity; lia.
Qed.

Lemma empty_poly_no_point e hs p : (length e <? 3)%nat = true -> poly_contains_point (Pg e hs) p = false.
Proof.
  intros E. apply Nat.ltb_lt in E. unfold poly_contains_point, Pg, Rg. cbn [exterior].
  rewrite ring_contains_point_spec, (ring_edges_short e E). reflexivity.
Qed.

Lemma intersecting_nonempty (s t : shape) :
  g_intersects (g_of_shape s) (g_of_shape t) = true -> s_empty s = false /\ s_empty t = false.
Proof.
  destruct s as [p|r|ps|e hs], t as [q|r'|qs|e' hs']; rewrite ?g_of_line, ?g_of_poly; cbn [s_empty g_of_shape g_intersects]; intros H.
  all: split; try reflexivity; apply not_true_iff_false; intros E; revert H.
  (* an empty line or polygon holds no point *)
  all: unfold point_intersects_line, point_intersects_poly; rewrite ?empty_line_no_point, ?empty_poly_no_point by exact E;
    try discriminate.
  (* every other routine starts by refusing an empty ring on either side *)
  all: unfold rect_intersects_line, rect_intersects_poly, line_intersects_rect, line_intersects_line, line_intersects_poly,
    poly_intersects_rect, poly_intersects_poly, poly_intersects_line, ring_intersects_line, ring_intersects_ring, rect_poly;
    cbn [exterior Pg]; rewrite ?Lr_empty, ?Rg_empty, E, ?orb_true_r; discriminate.
Qed.

(* the leaves of an object tree, as shapes *)
Definition poly_shape (rs : list (list pt)) : shape :=
  match rs with [] => SPoly [] [] | e :: hs => SPoly e hs end.

Fixpoint sleaves (o : obj) : list shape :=
  match o with
  | OPoint p | OSimple p => [SPoint p]
  | ORect r => [SRect r]
  | OLine ps => [SLine ps]
  | OPoly rs => [poly_shape rs]
  | OFeature b => sleaves b
  | OColl _ cs => flat_map sleaves cs
  end.

Lemma poly_shape_geom rs : g_of_shape (poly_shape rs) = GPoly (mk_poly rs).
Proof. destruct rs as [|e hs]; reflexivity. Qed.

Lemma g_of_shape_built t : built (g_of_shape t).
Proof. destruct t; cbn [g_of_shape]; constructor. Qed.

(* the shape of a leaf: Point, SimplePoint, Rect, LineString and Polygon answer every question as one
   shape does (ObjProofs: leaf_o_contains and its like) *)
Lemma leaf_sleaves (o : obj) (g : gshape) : leaf_geom o = Some g ->
  exists s, g = g_of_shape s /\ sleaves o = [s] /\ o_empty o = s_empty s.
Proof.
  destruct o as [p|p|r|ps|rs|b|k cs]; intros [= <-];
    [exists (SPoint p)|exists (SPoint p)|exists (SRect r)|exists (SLine ps)|exists (poly_shape rs)]; repeat split.
  - symmetry. apply poly_shape_geom.
  - cbn [o_empty]. rewrite poly_empty_eq. destruct rs; reflexivity.
Qed.

Lemma o_empty_sleaves (a : obj) : o_empty a = forallb s_empty (sleaves a).
Proof.
  induction a as [o g E|b IH|k cs IH] using obj_leaf_ind.
  - destruct (leaf_sleaves o g E) as (s & _ & -> & ->). cbn [forallb]. rewrite andb_true_r. reflexivity.
  - exact IH.
  - cbn [o_empty sleaves]. rewrite forallb_flat_map. apply forallb_ext_in. exact IH.
Qed.

Lemma nonempty_leaf_iff (a : obj) : o_empty a = false <-> exists x, In x (sleaves a) /\ s_empty x = false.
Proof. rewrite o_empty_sleaves. apply forallb_false. Qed.

Lemma sleaves_for_each (b : obj) : flat_map sleaves (for_each b) = sleaves b.
Proof. apply (parts_cover sleaves); reflexivity. Qed.

Lemma sleaves_for_each_part (b : obj) : flat_map sleaves (for_each_part b) = sleaves b.
Proof. apply (parts_cover sleaves); reflexivity. Qed.

Lemma o_empty_parts (a : obj) : o_empty a = forallb o_empty (for_each_part a).
Proof.
  rewrite o_empty_sleaves, <- sleaves_for_each_part, forallb_flat_map. apply forallb_ext_in, Forall_forall.
  intros p _. symmetry. apply o_empty_sleaves.
Qed.

(* Spatial().IntersectsX(g) of a tree = some leaf, as receiver, intersects g *)
Lemma o_intersects_g_flat (b : obj) : forall t, obj_wf b ->
  (o_intersects_g b (g_of_shape t) = true <->
   exists y, In y (sleaves b) /\ g_intersects (g_of_shape y) (g_of_shape t) = true).
Proof.
  induction b as [o g E|b IH|k cs IH] using obj_leaf_ind; intros t Hw.
  - rewrite (leaf_o_intersects_g o g _ E). destruct (leaf_sleaves o g E) as (s & -> & -> & _). split; [intros H; exists s; split; [left; reflexivity|exact H]|intros (y & [<-|[]] & H); exact H].
  - apply IH. exact Hw.
  - cbn [o_intersects_g sleaves]. rewrite Forall_forall in IH. rewrite visit_some. split.
    + intros (c & Hc & _ & _ & H). apply (IH c Hc t (obj_wf_child k cs c Hw Hc)) in H. destruct H as (y & Hy & H).
      exists y. split; [|exact H]. apply in_flat_map. exists c. split; assumption.
    + intros (y & Hy & H). apply in_flat_map in Hy. destruct Hy as (c & Hc & Hy). pose proof (obj_wf_child k cs c Hw Hc) as Hwc.
      assert (Hi : o_intersects_g c (g_of_shape t) = true) by (apply (IH c Hc t Hwc); exists y; split; assumption).
      exists c. split; [exact Hc|]. split; [|split; [apply (o_intersects_g_boxes c _ Hwc (g_of_shape_built t) Hi)|exact Hi]].
      apply nonempty_leaf_iff. exists y. split; [exact Hy|]. apply (intersecting_nonempty y t H).
Qed.

(* A.Intersects(B) = some leaf of B, as receiver, intersects some leaf of A *)
Lemma o_intersects_flat (a : obj) : forall b, obj_wf a -> obj_wf b ->
  (o_intersects a b = true <->
   exists x y, In x (sleaves a) /\ In y (sleaves b) /\ g_intersects (g_of_shape y) (g_of_shape x) = true).
Proof.
  induction a as [o g E|a IH|k cs IH] using obj_leaf_ind; intros b Hwa Hwb.
  - rewrite (leaf_o_intersects o g b E). destruct (leaf_sleaves o g E) as (s & -> & -> & _).
    rewrite (o_intersects_g_flat b s Hwb).
    split; [intros (y & Hy & H); exists s, y; split; [left; reflexivity|split; assumption]|intros (x & y & [<-|[]] & Hy & H); exists y; split; assumption].
  - rewrite feature_receiver_intersects. cbn [sleaves]. apply IH; assumption.
  - rewrite (coll_intersects_iff k cs b Hwa Hwb). cbn [sleaves]. rewrite Forall_forall in IH. split.
    + intros (c & p & Hc & Hp & _ & _ & H). apply (IH c Hc p (obj_wf_child k cs c Hwa Hc) (for_each_wf b Hwb p Hp)) in H.
      destruct H as (x & y & Hx & Hy & H). exists x, y. split; [apply in_flat_map; exists c; split; assumption|].
      split; [|exact H]. rewrite <- sleaves_for_each. apply in_flat_map. exists p. split; assumption.
    + intros (x & y & Hx & Hy & H). apply in_flat_map in Hx. destruct Hx as (c & Hc & Hx).
      rewrite <- sleaves_for_each in Hy. apply in_flat_map in Hy. destruct Hy as (p & Hp & Hy).
      destruct (intersecting_nonempty y x H) as [Ny Nx].
      exists c, p. split; [exact Hc|]. split; [exact Hp|].
      split; [apply nonempty_leaf_iff; exists x; split; assumption|]. split; [apply nonempty_leaf_iff; exists y; split; assumption|].
      apply (IH c Hc p (obj_wf_child k cs c Hwa Hc) (for_each_wf b Hwb p Hp)). exists x, y. split; [exact Hx|]. split; [exact Hy|exact H].
Qed.

Lemma no_hole_pair_sym x y : no_hole_pair x y -> no_hole_pair y x.
Proof. destruct x, y; cbn [no_hole_pair]; tauto. Qed.

Theorem o_intersects_sym (a b : obj) : obj_wf a -> obj_wf b ->
  (forall x y, In x (sleaves a) -> In y (sleaves b) -> no_hole_pair x y) ->
  o_intersects a b = o_intersects b a.
Proof.
  intros Hwa Hwb Hnh. apply bool_eq_iff. rewrite (o_intersects_flat a b Hwa Hwb), (o_intersects_flat b a Hwb Hwa). split.
  - intros (x & y & Hx & Hy & H). exists y, x. split; [exact Hy|]. split; [exact Hx|].
    rewrite <- H. apply g_intersects_sym. apply (Hnh x y Hx Hy).
  - intros (y & x & Hy & Hx & H). exists x, y. split; [exact Hx|]. split; [exact Hy|].
    rewrite <- H. apply g_intersects_sym. apply no_hole_pair_sym. apply (Hnh x y Hx Hy).
Qed.

Print Assumptions o_intersects_sym.
