(* JordanGP.v — property C03 in general position: for a ring not flagged convex, a segment whose
   two ends are off the boundary and through which no ring vertex passes is contained (allowOnEdge,
   the test applied to exteriors) exactly when every rational point of it is strictly inside —
   there the contact heuristics of ringContainsSegment (decision sites 6-11) are not reached and
   site 12 coincides with the strict test of site 13. *)
From GJ Require Import Base Kernel Series Ring RingSpec KernelProofs PipProofs Jordan JordanQ.
Import ListNotations.
Open Scope Z_scope.

Definition no_vertex_on (ps : list pt) (sg : seg) : Prop :=
  forall e, In e (ring_edges ps) -> raycast_on sg (fst e) = false /\ raycast_on sg (snd e) = false.

Lemma pip_idx_off_boundary (ps : list pt) (p : pt) :
  on_boundaryb (ring_edges ps) p = false ->
  snd (ring_contains_point (RS {| closed := true; pts := ps |}) p true) = -1.
Proof.
  intros Hb. unfold ring_contains_point.
  destruct (rect_contains_point _ p); cbn [negb]; [|reflexivity].
  unfold strip_search, ring_segments. rewrite RS_segs. fold (ring_edges ps).
  set (l := filter _ (indexed (ring_edges ps))).
  assert (Hl : forall si, In si l -> raycast_on (fst si) p = false).
  { intros [s i] Hin. unfold l in Hin. apply filter_In in Hin. destruct Hin as [Hin _].
    assert (Hs : In s (ring_edges ps)).
    { rewrite <- (map_fst_indexed (ring_edges ps)). exact (in_map fst _ _ Hin). }
    cbn [fst]. rewrite raycast_on_eq. apply (off_boundary_edge _ _ _ Hb Hs). }
  clearbody l. generalize false as inn. induction l as [|[s i] l IH]; intros inn; [reflexivity|].
  cbn [pip_fold]. destruct (raycast s p) as [i_ o_] eqn:Er.
  assert (o_ = false) as ->.
  { pose proof (Hl (s, i) (or_introl eq_refl)) as H. cbn [fst] in H. unfold raycast_on in H. rewrite Er in H. exact H. }
  apply IH. intros si Hsi. apply Hl. right. exact Hsi.
Qed.

(* in general position the two modes agree, on a ring flagged convex (site 5) as on any other *)
Theorem ring_contains_segment_general_position (ps : list pt) (A B : pt) :
  on_boundaryb (ring_edges ps) A = false -> on_boundaryb (ring_edges ps) B = false ->
  no_vertex_on ps (A, B) ->
  rcs (RS {| closed := true; pts := ps |}) (A, B) true = rcs (RS {| closed := true; pts := ps |}) (A, B) false.
Proof.
  intros HbA HbB Hnv. set (r := RS {| closed := true; pts := ps |}).
  (* off the boundary both modes of ringContainsPoint give the crossing parity *)
  assert (Hp : forall p al, on_boundaryb (ring_edges ps) p = false ->
                 fst (ring_contains_point r p al) = parityb (ring_edges ps) p).
  { intros p al Hb. change (fst (ring_contains_point r p al)) with (rcp_hit r p al). unfold r.
    rewrite ring_contains_point_spec, Hb. reflexivity. }
  pose proof (fun al => Hp A al HbA) as HA. pose proof (fun al => Hp B al HbB) as HB.
  unfold rcs, ring_contains_segment. fold r.
  destruct (negb (rect_contains_point (ring_rect r) A) || negb (rect_contains_point (ring_rect r) B)); [reflexivity|].
  rewrite !HA. destruct (parityb (ring_edges ps) A); cbn [negb]; [|reflexivity].
  destruct (pt_eqb B A); [reflexivity|].
  rewrite !HB. destruct (parityb (ring_edges ps) B); cbn [negb]; [|reflexivity].
  destruct (ring_convex r); [reflexivity|].
  assert (IA : snd (ring_contains_point r A true) = -1) by (apply pip_idx_off_boundary; exact HbA).
  assert (IB : snd (ring_contains_point r B true) = -1) by (apply pip_idx_off_boundary; exact HbB).
  rewrite !IA, !IB, !Z.eqb_refl. cbn [negb fst]. f_equal.
  (* site 12 = site 13: every candidate edge has both ends off the segment *)
  set (cands := ring_search r (seg_rect (A, B))).
  assert (Hc : forall si, In si cands -> In (fst si) (ring_edges ps)).
  { intros [s i] Hin. unfold cands, ring_search in Hin. apply filter_In in Hin. destruct Hin as [Hin _].
    unfold r, ring_segments in Hin. rewrite RS_segs in Hin. fold (ring_edges ps) in Hin.
    rewrite <- (map_fst_indexed (ring_edges ps)). exact (in_map fst _ _ Hin). }
  clearbody cands. induction cands as [|si l IH]; [reflexivity|]. cbn [existsb].
  rewrite IH by (intros x Hx; apply Hc; right; exact Hx). f_equal.
  destruct (Hnv (fst si) (Hc si (or_introl eq_refl))) as [E1 E2]. rewrite E1, E2. reflexivity.
Qed.

(* hence, in general position, "contains with contact allowed" is the point-set statement *)
Corollary ring_contains_segment_general_position_pointset (ps : list pt) (A B : pt) :
  ring_convex (RS {| closed := true; pts := ps |}) = false ->
  on_boundaryb (ring_edges ps) A = false -> on_boundaryb (ring_edges ps) B = false ->
  no_vertex_on ps (A, B) ->
  (rcs (RS {| closed := true; pts := ps |}) (A, B) true = true <-> all_strictly_inside ps A B).
Proof.
  intros Hcv HbA HbB Hnv. rewrite (ring_contains_segment_general_position ps A B HbA HbB Hnv).
  apply ring_contains_segment_strict_pointset. exact Hcv.
Qed.

Print Assumptions ring_contains_segment_general_position_pointset.
