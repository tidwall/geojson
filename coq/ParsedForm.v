(* ParsedForm.v — property C06: every object that Parse returns for a document
   whose numbers are finite is in parsed form (RoundTrip.pf), for every option
   set.  With RoundTrip.parse_emit_parse: Parse -> JSON -> Parse reaches a
   fixpoint after one step for every accepted document (tree level,
   parse_json_parse).  Also: parsed form implies the writers' precondition
   wf_o, before and after re-parsing (pf_wf), and re-parsing changes neither the
   kind tree nor the image in the predicate model (norm_same_geometry). *)
From GJ Require Import Base JsonConst Json JsonSpec JsonProofs EmitProofs RoundTrip JsonExec.
Open Scope Z_scope.

(* every number of the document is finite (no lexeme overflows to an infinity) *)
Fixpoint fin_doc (v : jv) : bool :=
  match v with
  | JNum _ f => match f with FV _ => true | _ => false end
  | JArr l => forallb fin_doc l
  | JObj ms => forallb (fun kv => fin_doc (snd kv)) ms
  | _ => true
  end.

Lemma fin_doc_hered : hered (fun v => fin_doc v = true).
Proof.
  split; cbn [fin_doc].
  - intros ms k v H Hin. rewrite forallb_forall in H. exact (H (k, v) Hin).
  - intros l x H Hin. rewrite forallb_forall in H. exact (H x Hin).
  - intros f ms H. apply forallb_forall. intros x Hx. apply filter_In in Hx. rewrite forallb_forall in H. apply H. tauto.
Qed.

Lemma fin_doc_elems (v : jv) : fin_doc v = true -> Forall (fun x => fin_doc x = true) (elems v).
Proof. exact (hered_elems _ fin_doc_hered v). Qed.

Lemma foreign_is_filter (ms : list (jkey * jv)) : k_foreign (scan_keys ms) = filter foreign_key ms.
Proof. rewrite scan_keys_eq. reflexivity. Qed.

Lemma foreign_keys_ok (ms : list (jkey * jv)) : forallb foreign_key (k_foreign (scan_keys ms)) = true.
Proof. rewrite foreign_is_filter. apply forallb_forall. intros x Hx. apply filter_In in Hx. tauto. Qed.

Lemma take_nums_fin (n : nat) (l : list jv) (t : list fnum) :
  Forall (fun x => fin_doc x = true) l -> take_nums false n l = Some t -> Forall fin t.
Proof.
  intros Hl H. destruct (take_nums_some _ _ _ _ H) as [-> Hn]. apply Forall_map.
  eapply Forall_impl; [|exact (Forall_and Hn (Forall_firstn' _ l n Hl))]. intros v [A B].
  destruct v as [| | |r f|r d|l0|ms]; try discriminate. cbn [fin_doc num_of] in *. destruct f; [exact I|discriminate|discriminate].
Qed.

(* the running extra of the coordinate parsers after n positions *)
Definition st_ok (n : nat) (ex : option extra) : Prop :=
  match ex with
  | None => True
  | Some e => (1 <= dims e <= 2)%nat /\ length (values e) = (dims e * n)%nat /\ members e = None
  end.

Lemma st_ok_form (n : nat) (ex : option extra) (foreign : list (jkey * jv)) :
  st_ok n ex -> forallb foreign_key foreign = true ->
  ex_form n (with_members ex foreign) /\ ex_values (with_members ex foreign) = ex_values ex.
Proof.
  intros Hs Hf. destruct foreign as [|m r].
  - cbn [with_members]. split; [|reflexivity]. destruct ex as [e|]; [|exact I]. cbn [st_ok ex_form] in *.
    destruct Hs as (Hd & Hl & Hm). rewrite Hm. repeat split; lia.
  - cbn [with_members]. destruct ex as [e|]; cbn [st_ok ex_form dims values members ex_values] in *.
    + destruct Hs as (Hd & Hl & Hm). repeat split; try lia; [congruence|exact Hf].
    + repeat split; try lia; [congruence|exact Hf].
Qed.

Lemma extra_of_nums_ok (nums : list fnum) : (length nums <= 4)%nat -> st_ok 1 (extra_of_nums nums).
Proof.
  intros H. destruct nums as [|x [|y [|z [|m [|w r]]]]]; cbn [extra_of_nums st_ok dims values members length] in *;
    try exact I; try (repeat split; lia).
Qed.

(* the position loop keeps the running extra consistent with the number
   of positions read (n0 of them in earlier rings): whatever the document *)
Definition st_inv (n0 : nat) (s : list fpt * option extra * bool) : Prop :=
  let '(pts, ex, first) := s in st_ok (n0 + length pts) ex /\ (first = true -> (n0 + length pts = 0)%nat /\ ex = None).

Lemma pos_step_st (mixed arr : bool) (n0 : nat) (v : jv) (s s' : list fpt * option extra * bool) :
  st_inv n0 s -> pos_step mixed arr (ROk s) v = ROk s' -> st_inv n0 s'.
Proof.
  destruct s as [[pts ex] first]. intros [Hs H1] H. destruct (pos_step_ok _ _ _ _ _ _ _ H) as (x & y & more & ex' & En & Ex & ->).
  pose proof (take_nums_length false 4 _ _ En) as Hlen. cbn [length] in Hlen. split; [|discriminate]. cbn [length].
  destruct ex as [e|]; cbn [next_extra] in Ex.
  - inversion Ex; subst. destruct Hs as (Hd & Hl & Hm). cbn [st_ok dims values members]. split; [lia|]. split; [|reflexivity].
    unfold pad_dims. rewrite app_length, map_length, seq_length, Hl. clear. lia.
  - destruct more as [|z r]; [inversion Ex; exact I|]. destruct first.
    + inversion Ex; subst. destruct (H1 eq_refl) as [H0 _]. cbn [st_ok dims values members length] in *. split; [lia|]. split; [clear - H0; nia|reflexivity].
    + destruct mixed; inversion Ex. exact I.
Qed.

Lemma pos_fold_st (mixed arr : bool) (n0 : nat) (l : list jv) (s s' : list fpt * option extra * bool) :
  st_inv n0 s -> fold_left (pos_step mixed arr) l (ROk s) = ROk s' -> st_inv n0 s'.
Proof.
  exact (fold_res_all (pos_step mixed arr) (fun c a => eq_refl) (fun _ => st_inv n0)
           (fun _ s1 a s2 => pos_step_st mixed arr n0 a s1 s2) l s s').
Qed.

Lemma npts_app (a b : list (list fpt)) : npts (a ++ b) = (npts a + npts b)%nat.
Proof. induction a as [|r a IH]; [reflexivity|]. cbn [app npts fold_right] in *. fold (npts (a ++ b)). fold (npts a). lia. Qed.

Lemma npts_rev (l : list (list fpt)) : npts (rev l) = npts l.
Proof.
  induction l as [|r l IH]; [reflexivity|]. cbn [rev]. rewrite npts_app, IH. cbn [npts fold_right]. fold (npts l). lia.
Qed.

Lemma ring_step_st (rings : list (list fpt)) (ex : option extra) (first : bool) (ring : jv) s' :
  st_ok (npts rings) ex -> (first = true -> npts rings = 0%nat /\ ex = None) ->
  ring_step (ROk (rings, ex, first)) ring = ROk s' -> st_ok (npts (fst (fst s'))) (snd (fst s')) /\ snd s' = false.
Proof.
  intros Hs H1 H. destruct (ring_step_ok _ _ _ _ _ H) as (pts & e & f & E & ->). split; [|reflexivity].
  assert (Hi : st_inv (npts rings) ([], ex, first)) by (cbn [st_inv length]; rewrite Nat.add_0_r; split; assumption).
  destruct (pos_fold_st MIXED_OK false (npts rings) _ _ _ Hi E) as [Hs' _].
  cbn [fst snd npts fold_right]. fold (npts rings). rewrite rev_length, Nat.add_comm. exact Hs'.
Qed.

Lemma ring_fold_st (l : list jv) (rings : list (list fpt)) (ex : option extra) (first : bool) s' :
  st_ok (npts rings) ex -> (first = true -> npts rings = 0%nat /\ ex = None) ->
  fold_left ring_step l (ROk (rings, ex, first)) = ROk s' -> st_ok (npts (fst (fst s'))) (snd (fst s')).
Proof.
  intros Hs H1 H.
  refine (proj1 (fold_res_all ring_step (fun c a => eq_refl)
           (fun _ s => st_ok (npts (fst (fst s))) (snd (fst s)) /\ (snd s = true -> npts (fst (fst s)) = 0%nat /\ snd (fst s) = None))
           _ l (rings, ex, first) s' (conj Hs H1) H)).
  intros _ [[r0 e0] f0] a s1 [A B] E. destruct (ring_step_st r0 e0 f0 a s1 A B E) as [C D]. split; [exact C|]. rewrite D. discriminate.
Qed.

Lemma point_coords_form (top : bool) (rc : option jv) (p : fpt) (ex : option extra) :
  parse_point_coords top rc = ROk (p, ex) -> st_ok 1 ex.
Proof.
  intros H. destruct (point_coords_ok _ _ _ _ H) as (v & x & y & r & _ & E & _ & ->).
  apply (extra_of_nums_ok (x :: y :: r)). rewrite (take_nums_length true 4 _ _ E). apply Nat.le_min_l.
Qed.

Lemma line_coords_st (top : bool) (v : jv) (ps : list fpt) (ex : option extra) :
  parse_line_coords top (Some v) = ROk (ps, ex) -> st_ok (length ps) ex.
Proof.
  intros H. destruct (line_coords_ok _ _ _ _ H) as (pts & f & E & ->). rewrite rev_length.
  exact (proj1 (pos_fold_st MIXED_OK true 0 _ ([], None, true) (pts, ex, f) (conj I (fun _ => conj eq_refl eq_refl)) E)).
Qed.

Lemma poly_coords_st (top : bool) (v : jv) (rings : list (list fpt)) (ex : option extra) :
  parse_poly_coords top (Some v) = ROk (rings, ex) -> st_ok (npts rings) ex.
Proof.
  intros H. destruct (poly_coords_ok _ _ _ _ H) as (rs & f & E & ->). rewrite npts_rev.
  exact (ring_fold_st _ [] None true (rs, ex, f) I (fun _ => conj eq_refl eq_refl) E).
Qed.

Lemma nth_fin (l : list fnum) (i : nat) : Forall fin l -> fin (nth i l (FV 0)).
Proof.
  intros H. destruct (Nat.lt_ge_cases i (length l)) as [Hi|Hi].
  - rewrite Forall_forall in H. apply H. apply nth_In. exact Hi.
  - rewrite nth_overflow by exact Hi. exact I.
Qed.

Lemma pad_dims_fin (d : nat) (more : list fnum) : Forall fin more -> Forall fin (pad_dims d more).
Proof.
  intros H. apply Forall_forall. intros x Hx. apply in_map_iff in Hx. destruct Hx as (i & <- & _). apply nth_fin. exact H.
Qed.

Definition fin_inv (s : list fpt * option extra * bool) : Prop := Forall fin_pt (fst (fst s)) /\ Forall fin (ex_values (snd (fst s))).

Lemma pos_step_fin (mixed arr : bool) (v : jv) (s s' : list fpt * option extra * bool) :
  fin_inv s -> fin_doc v = true -> pos_step mixed arr (ROk s) v = ROk s' -> fin_inv s'.
Proof.
  destruct s as [[pts ex] first]. unfold fin_inv. cbn [fst snd]. intros [Hp Hf] Hv H.
  destruct (pos_step_ok _ _ _ _ _ _ _ H) as (x & y & more & ex' & En & Ex & ->). cbn [fst snd].
  pose proof (take_nums_fin 4 _ _ (fin_doc_elems v Hv) En) as Hfin.
  inversion Hfin as [|? ? Hx Hfin1]; subst. inversion Hfin1 as [|? ? Hy Hr]; subst.
  split; [constructor; [split; assumption|exact Hp]|]. destruct ex as [e|]; cbn [next_extra] in Ex.
  - inversion Ex; subst. cbn [ex_values values] in *. apply Forall_app. split; [exact Hf|apply pad_dims_fin; exact Hr].
  - destruct more; [inversion Ex; constructor|]. destruct first; [inversion Ex; exact Hr|]. destruct mixed; inversion Ex. constructor.
Qed.

Lemma pos_fold_fin (mixed arr : bool) (l : list jv) (s s' : list fpt * option extra * bool) :
  Forall (fun x => fin_doc x = true) l -> fin_inv s -> fold_left (pos_step mixed arr) l (ROk s) = ROk s' -> fin_inv s'.
Proof.
  intros Hl Hs H.
  exact (fold_res_inv (pos_step mixed arr) (fun c a => eq_refl) (fun _ => fin_inv) (fun x => fin_doc x = true)
           (fun _ s1 a s2 H1 Ha E => pos_step_fin mixed arr a s1 s2 H1 Ha E) l [] s s' Hl Hs H).
Qed.

Definition rings_fin (s : list (list fpt) * option extra * bool) : Prop :=
  Forall (Forall fin_pt) (fst (fst s)) /\ Forall fin (ex_values (snd (fst s))).

Lemma ring_step_fin (ring : jv) (s s' : list (list fpt) * option extra * bool) :
  rings_fin s -> fin_doc ring = true -> ring_step (ROk s) ring = ROk s' -> rings_fin s'.
Proof.
  destruct s as [[rings ex] first]. intros [Hr Hf] Hv H. destruct (ring_step_ok _ _ _ _ _ H) as (pts & e & f & E & ->).
  destruct (pos_fold_fin MIXED_OK false _ ([], ex, first) _ (fin_doc_elems ring Hv) (conj (Forall_nil _) Hf) E) as [Hp Hf'].
  split; [constructor; [apply Forall_rev; exact Hp|exact Hr]|exact Hf'].
Qed.

Lemma line_coords_form (top : bool) (v : jv) (ps : list fpt) (ex : option extra) :
  fin_doc v = true -> parse_line_coords top (Some v) = ROk (ps, ex) ->
  Forall fin_pt ps /\ st_ok (length ps) ex /\ Forall fin (ex_values ex).
Proof.
  intros Hv H. pose proof (line_coords_st _ _ _ _ H) as Hs. destruct (line_coords_ok _ _ _ _ H) as (pts & f & E & ->).
  destruct (pos_fold_fin MIXED_OK true _ ([], None, true) _ (fin_doc_elems v Hv) (conj (Forall_nil _) (Forall_nil _)) E) as [Hp Hf].
  split; [apply Forall_rev; exact Hp|]. split; [exact Hs|exact Hf].
Qed.

Lemma poly_coords_form (top : bool) (v : jv) (rings : list (list fpt)) (ex : option extra) :
  fin_doc v = true -> parse_poly_coords top (Some v) = ROk (rings, ex) ->
  Forall (Forall fin_pt) rings /\ st_ok (npts rings) ex /\ Forall fin (ex_values ex).
Proof.
  intros Hv H. pose proof (poly_coords_st _ _ _ _ H) as Hs. destruct (poly_coords_ok _ _ _ _ H) as (rs & f & E & ->).
  destruct (fold_res_inv ring_step (fun c a => eq_refl) (fun _ => rings_fin) (fun x => fin_doc x = true)
              (fun _ s1 a s2 H1 Ha E1 => ring_step_fin a s1 s2 H1 Ha E1) _ [] ([], None, true) _ (fin_doc_elems v Hv)
              (conj (Forall_nil _) (Forall_nil _)) E) as [Hr Hf].
  split; [apply Forall_rev; exact Hr|]. split; [exact Hs|exact Hf].
Qed.

Lemma st_ok_child (n : nat) (ex : option extra) : st_ok n ex -> ex_form n ex /\ no_members ex.
Proof.
  intros H. destruct (st_ok_form n ex [] H eq_refl) as [Hf _]. cbn [with_members] in Hf. split; [exact Hf|].
  destruct ex as [e|]; [|exact I]. cbn [st_ok no_members] in *. tauto.
Qed.

Lemma members_only_with (foreign : list (jkey * jv)) : forallb foreign_key foreign = true ->
  members_only (with_members None foreign) /\ ex_members (with_members None foreign) = foreign.
Proof.
  intros H. destruct (st_ok_form 0 None foreign I H) as [Hf _]. split; [split; [exact Hf|]|]; destruct foreign; reflexivity.
Qed.

Lemma pf_coll_intro (o : popts) (one : Z) (k : Z) (cs : list gobj) (ex : option extra) :
  0 <= k <= 4 -> members_only ex -> (k < 3 -> check_ok o (JColl k cs ex)) ->
  Forall (fun c => if k <? 3 then child_pf k c else pf o one c) cs -> pf o one (JColl k cs ex).
Proof.
  intros Hk Hm Hc Hch. cbn [pf]. split; [exact Hk|]. split; [exact Hm|]. split; [exact Hc|]. apply all_Forall. exact Hch.
Qed.

Lemma circle_of_form (o : popts) (one : Z) (p : fpt) (ms : list (jkey * jv)) (g : gobj) :
  fin_doc (JObj ms) = true -> circle_of o one p ms = Some (POk g) ->
  exists m, g = JCircle p m /\ fin m /\ disable_circle o = false.
Proof.
  intros Hf. unfold circle_of. destruct (disable_circle o); [discriminate|].
  destruct (get2 s_properties s_type ms) as [tv|]; [|discriminate].
  destruct (bytes_eqb (str_of tv) s_Circle); [|discriminate].
  destruct (negb _); [discriminate|].
  destruct (get2 s_properties s_radius ms) as [rv|] eqn:Er.
  - pose proof (hered_get2 _ fin_doc_hered _ _ _ _ Hf Er) as Hrv.
    destruct rv as [| | |r f|r d|l|ms2]; try discriminate; intros H; inversion H; subst; eexists; (split; [reflexivity|]); (split; [|reflexivity]);
      try (destruct (bytes_eqb _ s_km); exact I).
    cbn [fin_doc] in Hrv. destruct f; try discriminate. destruct (bytes_eqb _ s_km); exact I.
  - intros H; inversion H; subst; eexists; (split; [reflexivity|]); (split; [|reflexivity]). destruct (bytes_eqb _ s_km); exact I.
Qed.

Lemma circle_of_nil (o : popts) (one : Z) (p : fpt) : circle_of o one p [] = None.
Proof. unfold circle_of. destruct (disable_circle o); reflexivity. Qed.

Lemma fnum_ltb_fin (a b : fnum) : fnum_ltb a b = true -> fin a /\ fin b.
Proof. destruct a, b; cbn; try discriminate. intros _. split; exact I. Qed.
Lemma fnum_eqb_fin (a b : fnum) : fnum_eqb a b = true -> fin a /\ fin b /\ a = b.
Proof. intros H. pose proof (fnum_eqb_eq a b H) as <-. destruct a; try discriminate H. repeat split. Qed.

Lemma perfect_rect_form (ext : list fpt) (d : fpt) : perfect_rect ext = true -> rect_form (nth 0 ext d) (nth 2 ext d).
Proof.
  unfold perfect_rect. destruct ext as [|p0 [|p1 [|p2 [|p3 [|p4 [|p5 r]]]]]]; try discriminate. intros H.
  rewrite !andb_true_iff in H. destruct H as (((((((H1 & H2) & H3) & H4) & H5) & H6) & H7) & H8).
  cbn [nth]. destruct (fnum_ltb_fin _ _ H1) as [A1 A2]. destruct (fnum_eqb_fin _ _ H2) as (B1 & B2 & B3).
  destruct (fnum_eqb_fin _ _ H3) as (C1 & C2 & C3). destruct (fnum_ltb_fin _ _ H4) as [D1 D2].
  unfold rect_form, fin_pt. repeat split; try assumption.
  - rewrite <- C3. exact H1.
  - rewrite B3. exact H4.
Qed.

Lemma multi_child_pf (k : Z) (x : jv) (y : gobj) : 0 <= k < 3 -> fin_doc x = true -> multi_child k x = ROk y -> child_pf k y.
Proof.
  intros Hk Hx. unfold multi_child. destruct (k =? 0) eqn:E0; [|destruct (k =? 1) eqn:E1].
  - apply Z.eqb_eq in E0. subst k. unfold child_point.
    destruct (parse_point_coords false (Some x)) as [[p ex]|c] eqn:Ep; [|discriminate]. intros Hxy. inversion Hxy; subst. cbn [child_pf].
    destruct (st_ok_child 1 ex (point_coords_form _ _ _ _ Ep)) as [A B]. repeat split; assumption.
  - apply Z.eqb_eq in E1. subst k. unfold child_line.
    destruct (parse_line_coords false (Some x)) as [[ps ex]|c] eqn:Ep; [|discriminate].
    destruct (length ps <? 2)%nat eqn:El; [discriminate|]. apply Nat.ltb_ge in El. intros Hxy. inversion Hxy; subst. cbn [child_pf].
    destruct (line_coords_form _ _ _ _ Hx Ep) as (Hps & Hs & Hfin).
    destruct (st_ok_child _ ex Hs) as [A B]. repeat split; assumption.
  - assert (k = 2) by (apply Z.eqb_neq in E0, E1; lia). subst k. unfold child_poly.
    destruct (parse_poly_coords false (Some x)) as [[rings ex]|c] eqn:Ep; [|discriminate].
    destruct rings as [|ext holes]; [discriminate|].
    destruct (forallb ring_ok (ext :: holes)) eqn:Eok; [|discriminate]. intros Hxy. inversion Hxy; subst. cbn [child_pf].
    destruct (poly_coords_form _ _ _ _ Hx Ep) as (Hr & Hs & Hfin).
    destruct (st_ok_child _ ex Hs) as [A B]. repeat split; try assumption. discriminate.
Qed.

Theorem parse_pf (fuel : nat) : forall (o : popts) (one : Z) (v : jv) (g : gobj),
  fin_doc v = true -> parse fuel o one v = POk g -> pf o one g.
Proof.
  intros o one. apply (parse_ind (fun v => fin_doc v = true) (pf o one)). intros rec ms tname K g Hv IH Ek H.
  pose proof (hered_keys _ fin_doc_hered ms Hv) as Hks. pose proof Hks as (Hc & _ & Hg & _ & Hffin).
  pose proof (foreign_keys_ok ms) as Hfor.
  set (ks := scan_keys ms) in *. set (foreign := k_foreign ks) in *. destruct K as [| | | |k]; cbn [parse_kind] in H.
  - destruct (parse_pt_ok _ _ _ H) as (p & ex & Ep & Hck & Hg'). fold foreign in Hg'.
    destruct (st_ok_form 1 ex foreign (point_coords_form _ _ _ _ Ep) Hfor) as [Hform _].
    destruct Hg' as [[-> Hsm]|(-> & _ & Ea)]; cbn [pf]; [split; [exact Hform|split; assumption]|split; assumption].
  - destruct (parse_ln_ok _ _ _ H) as (cv & ps & ex & Ec & Ep & El & -> & Hck). fold foreign.
    destruct (line_coords_form _ _ _ _ (Hc cv Ec) Ep) as (Hps & Hs & Hfin).
    destruct (st_ok_form (length ps) ex foreign Hs Hfor) as [Hform Hvals]. cbn [pf]. split; [|exact Hck].
    repeat split; try assumption. unfold vals_fin. rewrite Hvals. exact Hfin.
  - destruct (parse_pg_ok _ _ _ H) as (cv & ext & holes & ex & Ec & Ep & Eok & Hck & Hg'). fold foreign in Hg'.
    destruct (poly_coords_form _ _ _ _ (Hc cv Ec) Ep) as (Hr & Hs & Hfin).
    destruct (st_ok_form _ ex foreign Hs Hfor) as [Hform Hvals].
    destruct Hg' as [[-> Hnr]|(-> & _ & _ & Er)]; cbn [pf].
    + split; [|split; [|exact Hck]].
      * repeat split; try assumption; [discriminate|]. unfold vals_fin. rewrite Hvals. exact Hfin.
      * intros Ew ext' E. inversion E; subst. exact (Hnr Ew eq_refl).
    + apply andb_true_iff in Er. destruct Er as [Ea Epr]. split; [exact Ea|]. split; [apply perfect_rect_form; exact Epr|exact Hck].
  - destruct (parse_ft_ok _ _ _ _ _ H) as (gv & base & Eg & Eb & Hcr). fold foreign in Hcr.
    pose proof (IH gv base (Hg gv Eg) Eb) as Hb. destruct (members_only_with foreign Hfor) as [Hmo Hmem].
    destruct Hcr as [Ecr|[Ecr ->]].
    + destruct (circ_of_ok _ _ _ _ _ Ecr) as (p & _ & Ec & _ & Hbase). destruct (circle_of_form o one p _ g Hffin Ec) as (m & -> & Hm & Hd).
      cbn [pf]. split; [exact Hd|]. split; [exact Hm|]. destruct Hbase as [->|[ex ->]]; apply Hb.
    + cbn [pf]. split; [exact Hb|]. split; [exact Hmo|]. rewrite Hmem.
      destruct base as [p ex|p| | | | | |]; cbn [not_circle]; try exact I;
        (destruct foreign as [|m0 ms']; [apply circle_of_nil|exact Ecr]).
  - apply tkind_coll_range in Ek. destruct (parse_coll_ok _ _ _ _ _ H) as (cv & kids & Ec & Ekids & -> & Hck).
    pose proof (keys_in_coll _ k ks cv Hks Ec) as Hcv. destruct (members_only_with foreign Hfor) as [Hmo _].
    apply pf_coll_intro; [exact Ek|exact Hmo|exact Hck|].
    eapply (map_until_inv _ (fun x => fin_doc x = true)); [exact (fin_doc_elems cv Hcv)| |exact Ekids].
    intros x y Hx Hxy. unfold coll_child in Hxy. destruct (k <? 3) eqn:E3.
    + apply Z.ltb_lt in E3. apply (multi_child_pf k x y); [lia|exact Hx|exact Hxy].
    + unfold pres_res in Hxy. destruct (rec x) as [gx|cx] eqn:Ex; [|discriminate]. inversion Hxy; subst. exact (IH x y Hx Ex).
Qed.

(* parsed form implies the writers' well-formedness hypothesis (EmitProofs.wf_o):
   the bytes, not only the trees, are identical *)
Lemma ex_form_ok (n : nat) (ex : option extra) : ex_form n ex -> ex_ok ex.
Proof.
  destruct ex as [[d v [ms|]]|]; cbn [ex_form ex_ok members]; try (intros; exact I). intros (_ & _ & H & _). exact H.
Qed.

Lemma wf_coll_intro (k : Z) (cs : list gobj) (ex : option extra) :
  0 <= k <= 4 -> ex_ok ex -> Forall (fun c => if k <? 3 then multi_child_ok c else wf_o c) cs -> wf_o (JColl k cs ex).
Proof.
  intros Hk He H. cbn [wf_o]. split; [exact Hk|]. split; [exact He|]. apply all_Forall. exact H.
Qed.

Lemma child_pf_ok (k : Z) (c : gobj) : child_pf k c -> multi_child_ok c.
Proof.
  destruct c as [p ex|p|mn mx|ps ex|rings ex|b ex|k' cs ex|cc m]; cbn [child_pf multi_child_ok]; try contradiction.
  - intros (_ & H & _). exact (ex_form_ok 1 ex H).
  - intros (_ & (_ & _ & H & _) & _). exact (ex_form_ok _ ex H).
  - intros (_ & (_ & _ & _ & H & _) & _). exact (ex_form_ok _ ex H).
Qed.

Theorem pf_wf (o : popts) (one : Z) (g : gobj) : pf o one g -> wf_o g /\ wf_o (norm g).
Proof.
  induction g as [p ex|p|mn mx|ps ex|rings ex|b ex IHb|k cs ex IHcs|c m] using gobj_ind'; intros Hpf.
  - destruct Hpf as (H & _). cbn [norm wf_o]. split; exact (ex_form_ok 1 ex H).
  - split; exact I.
  - split; exact I.
  - destruct Hpf as ((_ & _ & H & _) & _). cbn [norm wf_o]. split; exact (ex_form_ok _ ex H).
  - destruct Hpf as ((_ & _ & _ & H & _) & _). cbn [norm wf_o]. split; exact (ex_form_ok _ ex H).
  - destruct Hpf as (Hb & (Hm & _) & _). destruct (IHb Hb) as [W1 W2]. cbn [norm wf_o]. split.
    + split; [exact (ex_form_ok 0 ex Hm)|exact W1].
    + split; [|exact W2]. cbn [ex_ok members]. destruct (extra_members_true_ne ex) as (m0 & ms0 & E). rewrite E. discriminate.
  - pose proof (pf_coll_children o one k cs ex Hpf) as Hch. destruct Hpf as (Hk & (Hm & _) & _ & _).
    pose proof (ex_form_ok 0 ex Hm) as He. cbn [norm]. split.
    + apply wf_coll_intro; [exact Hk|exact He|]. apply Forall_forall. intros c Hc. rewrite Forall_forall in Hch, IHcs.
      specialize (Hch c Hc). destruct (k <? 3); [exact (child_pf_ok k c Hch)|exact (proj1 (IHcs c Hc Hch))].
    + apply wf_coll_intro; [exact Hk|exact He|]. rewrite Forall_forall in Hch, IHcs. destruct (k <? 3) eqn:E.
      * apply Forall_forall. intros c Hc. exact (child_pf_ok k c (Hch c Hc)).
      * apply Forall_forall. intros c' Hc'. apply in_map_iff in Hc'. destruct Hc' as (c & <- & Hc).
        exact (proj2 (IHcs c Hc (Hch c Hc))).
  - split; exact I.
Qed.

(* C06 for every accepted document (tree level, bytes of the writers) *)
Theorem parse_json_parse (fmt : Z -> list Z) (fuel fuel2 : nat) (o : popts) (one : Z) (v : jv) (g : gobj) :
  fin_doc v = true -> parse fuel o one v = POk g -> (gdepth g <= fuel2)%nat ->
  let g' := norm g in
  parse fuel2 o one (emit_jv fmt g) = POk g' /\                       (* the output is accepted again, same options *)
  emit fmt g' = emit fmt g /\                                        (* and writes byte-identical output *)
  emit fmt g = print_min (emit_jv fmt g) /\                          (* which is the minified text of the tree that was parsed *)
  parse fuel2 o one (emit_jv fmt g') = POk g'.                       (* a fixpoint after one step *)
Proof.
  intros Hv Hp Hf. pose proof (parse_pf fuel o one v g Hv Hp) as Hpf.
  destruct (parse_emit_parse fmt o one g fuel2 Hpf Hf) as (A & B & C). destruct (pf_wf o one g Hpf) as [W1 W2].
  cbv zeta. split; [exact A|]. split; [|split; [apply emit_is_print; exact W1|exact C]].
  rewrite (emit_is_print fmt (norm g) W2), (emit_is_print fmt g W1), B. reflexivity.
Qed.

(* the re-parsed object has the same kind tree and coordinates, and the same image in the predicate model
   (Obj.obj): every contains / within / intersects answer is identical *)
Theorem norm_same_geometry (g : gobj) : enc_tree (norm g) = enc_tree g /\ to_obj (norm g) = to_obj g.
Proof.
  induction g as [p ex|p|mn mx|ps ex|rings ex|b ex IHb|k cs ex IHcs|c m] using gobj_ind'; try (split; reflexivity).
  - destruct IHb as [A B]. cbn [norm enc_tree to_obj]. rewrite A, B. split; reflexivity.
  - cbn [norm]. destruct (k <? 3); [split; reflexivity|]. cbn [enc_tree to_obj]. rewrite map_length, map_map.
    rewrite Forall_forall in IHcs. split.
    + do 3 f_equal. rewrite flat_map_map. apply flat_map_ext_in. intros c Hc. exact (proj1 (IHcs c Hc)).
    + do 2 f_equal. apply map_ext_in. intros c Hc. exact (proj2 (IHcs c Hc)).
Qed.

Print Assumptions parse_pf.
Print Assumptions parse_json_parse.
Print Assumptions norm_same_geometry.
