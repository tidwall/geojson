(* SymmetrySeg.v — property C12 / C19: Segment.IntersectsSegment, Line.IntersectsLine and
   Line.ContainsPoint are invariant under the reflections and the transposition: the instances of
   the general statements of Symmetry.v. *)
From GJ Require Import MirrorY Symmetry Mirror.

Definition intersects_segment_mx := intersects_segment_tau mir on_segb_mir cross_mir.
Definition intersects_segment_my := intersects_segment_tau my on_segb_my cross_my.
Definition intersects_segment_tr := intersects_segment_tau tr on_segb_tr cross_tr.
Definition line_intersects_line_mx := line_intersects_line_tau mir on_segb_mir cross_mir.
Definition line_intersects_line_my := line_intersects_line_tau my on_segb_my cross_my.
Definition line_intersects_line_tr := line_intersects_line_tau tr on_segb_tr cross_tr.
Definition line_contains_point_mx := line_contains_point_tau mir on_segb_mir.
Definition line_contains_point_my := line_contains_point_tau my on_segb_my.
Definition line_contains_point_tr := line_contains_point_tau tr on_segb_tr.
Print Assumptions line_intersects_line_tr.
