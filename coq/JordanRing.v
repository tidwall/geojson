(* JordanRing.v — property C02, ring x ring (polygon without holes x polygon
   without holes) as point sets.
   ringIntersectsRing tests the edges of the ring with the smaller bounding box
   against the other ring.  Theorem ring_intersects_ring_pointset: it answers
   true exactly when the two closed rings share a rational point — a statement
   symmetric in the operands.  The completeness direction needs, besides
   Jordan.v / JordanQ.v:
   - nesting (one boundary strictly inside the other region) forces a strictly
     larger bounding box, which the area rule excludes;
   - two rings whose boundaries each lie strictly outside the other have no
     common point: a descent on the number of edges met by a segment from the
     common point to a boundary point. *)
From GJ Require Import Base KernelSpec Series SeriesSpec Ring RingSpec KernelProofs IntersectsProofs
  IntersectsQ SeriesProofs PipProofs PairProofs Invariance AffinePairs Jordan JordanQ.
Import ListNotations.
Local Open Scope Z_scope.

(* V on the edge, W between P and V, and the edge meets [P, W]: then W is on the edge, because it
   lies between V and the point where the edge meets [P, W] *)
Lemma meet_before_on_edge (a b P V W : pt) :
  on_seg (a, b) V -> on_seg (P, V) W -> seg_meet (a, b) (P, W) -> on_seg (a, b) W.
Proof.
  intros HV HW Hm. destruct (seg_meet_common_scaled a b P W Hm) as (k & Q & Hk & Q1 & Q2).
  apply (on_seg_sc_iff k (a, b) W Hk). apply (on_seg_convex _ _ Q (sc k V)).
  - exact Q1.
  - apply (on_seg_sc k (a, b) V Hk HV).
  - apply (on_seg_between (sc k P)); [apply (on_seg_sc k (P, V) W Hk HW)|exact Q2].
Qed.

Definition edges_at (k : Z) (ps : list pt) : list seg := ring_edges (map (sc k) ps).

Lemma edges_at_1 ps : edges_at 1 ps = ring_edges ps.
Proof. unfold edges_at. rewrite map_sc_1. reflexivity. Qed.

Lemma edges_at_map k ps : 0 < k -> edges_at k ps = map (scs k) (ring_edges ps).
Proof. intros Hk. unfold edges_at. apply sc_edges. exact Hk. Qed.

Lemma edges_at_mul j k ps : 0 < j -> edges_at (j * k) ps = map (scs j) (edges_at k ps).
Proof.
  intros Hj. unfold edges_at. rewrite <- sc_edges, map_sc_sc by exact Hj. reflexivity.
Qed.

Lemma edges_at_scale j k ps e : 0 < j -> In e (edges_at k ps) -> In (scs j e) (edges_at (j * k) ps).
Proof. intros Hj He. rewrite edges_at_mul by exact Hj. apply in_map. exact He. Qed.

Lemma seg_meetb_sc j e P C : 0 < j -> seg_meetb (scs j e) (sc j P, sc j C) = seg_meetb e (P, C).
Proof.
  intros Hj. apply bool_eq_iff. rewrite !seg_meetb_iff.
  change (sc j P, sc j C) with (scs j (P, C)). apply seg_meet_sc. exact Hj.
Qed.

Definition nmeet (E : list seg) (P C : pt) : nat := length (filter (fun e => seg_meetb e (P, C)) E).

Lemma nmeet_sc j E P C : 0 < j -> nmeet (map (scs j) E) (sc j P) (sc j C) = nmeet E P C.
Proof.
  intros Hj. unfold nmeet. induction E as [|e E IH]; [reflexivity|]. cbn [map filter].
  rewrite seg_meetb_sc by exact Hj. destruct (seg_meetb e (P, C)); cbn [length]; rewrite IH; reflexivity.
Qed.

(* every rational boundary point of ring Y is outside the closed ring X *)
Definition boundary_outside (psX psY : list pt) : Prop :=
  forall k e S, 0 < k -> In e (edges_at k psY) -> on_seg e S -> in_ringb (edges_at k psX) S = false.

Lemma descent_step (psX psY : list pt) (n : nat) :
  boundary_outside psX psY -> boundary_outside psY psX ->
  (forall k P C, 0 < k -> parityb (edges_at k psX) P = true -> parityb (edges_at k psY) P = true ->
     (on_boundary (edges_at k psX) C \/ on_boundary (edges_at k psY) C) ->
     (nmeet (edges_at k psX) P C + nmeet (edges_at k psY) P C < n)%nat -> False) ->
  forall k P C, 0 < k -> parityb (edges_at k psX) P = true -> parityb (edges_at k psY) P = true ->
     on_boundary (edges_at k psY) C ->
     (nmeet (edges_at k psX) P C + nmeet (edges_at k psY) P C < S n)%nat -> False.
Proof.
  intros HXY HYX IH k P C Hk PX PY (eC & HeC & HonC) Hn.
  (* C is outside X, P inside: an X-edge meets [P, C] *)
  destruct (proj1 (in_ringb_false_iff _ _) (HXY k eC C Hk HeC HonC)) as [_ PXC].
  destruct (existsb (fun e => seg_meetb e (P, C)) (edges_at k psX)) eqn:Ex.
  2:{ assert (parityb (edges_at k psX) P = parityb (edges_at k psX) C); [|congruence].
      apply parity_constant_off_boundary, no_edge_meets_iff, Ex. }
  apply existsb_exists in Ex. destruct Ex as ([a b] & He' & Hm'). apply seg_meetb_iff in Hm'.
  destruct (seg_meet_common_scaled a b P C Hm') as (j & C' & Hj & On1 & On2).
  assert (Hjk : 0 < j * k) by (apply Z.mul_pos_pos; assumption).
  apply (IH (j * k) (sc j P) C' Hjk).
  - rewrite edges_at_mul by exact Hj. rewrite parityb_sc by exact Hj. exact PX.
  - rewrite edges_at_mul by exact Hj. rewrite parityb_sc by exact Hj. exact PY.
  - left. exists (scs j (a, b)). split; [apply (edges_at_scale j k psX _ Hj He')|exact On1].
  - rewrite <- (nmeet_sc j (edges_at k psX) P C Hj), <- (nmeet_sc j (edges_at k psY) P C Hj) in Hn.
    rewrite <- !edges_at_mul in Hn by exact Hj.
    assert (Sub : forall e, seg_meetb e (sc j P, C') = true -> seg_meetb e (sc j P, sc j C) = true).
    { intros e Hm. apply seg_meetb_iff. apply seg_meetb_iff in Hm. apply (sub_segment_meet e _ _ C' On2 Hm). }
    assert (LX : (nmeet (edges_at (j * k) psX) (sc j P) C' <= nmeet (edges_at (j * k) psX) (sc j P) (sc j C))%nat).
    { apply filter_length_le. intros e _. apply Sub. }
    assert (LY : (nmeet (edges_at (j * k) psY) (sc j P) C' < nmeet (edges_at (j * k) psY) (sc j P) (sc j C))%nat).
    { apply (filter_length_lt _ _ _ (scs j eC)).
      - intros e _. apply Sub.
      - apply (edges_at_scale j k psY _ Hj HeC).
      - apply seg_meetb_iff. destruct eC as [c d]. change (scs j (c, d)) with (sc j c, sc j d).
        rewrite seg_meet_unfold. right. left. apply (on_seg_sc j (c, d) C Hj HonC).
      - destruct (seg_meetb (scs j eC) (sc j P, C')) eqn:Em; [exfalso|reflexivity].
        apply seg_meetb_iff in Em. destruct eC as [c d].
        pose proof (meet_before_on_edge (sc j c) (sc j d) (sc j P) (sc j C) C'
                      (on_seg_sc j (c, d) C Hj HonC) On2 Em) as OnY.
        (* C' is on the boundary of both rings *)
        destruct (proj1 (in_ringb_false_iff _ _) (HXY (j * k) _ C' Hjk (edges_at_scale j k psY _ Hj HeC) OnY)) as [Nb _].
        rewrite (on_boundary_edge _ C' _ (edges_at_scale j k psX _ Hj He') On1) in Nb. discriminate Nb. }
    lia.
Qed.

Lemma parity_true_crossing (E : list seg) (p : pt) :
  parityb E p = true -> exists e, In e E /\ crossesb e p = true.
Proof.
  unfold parityb. induction E as [|e E IH]; [discriminate|]. cbn [fold_right]. intros H.
  destruct (crossesb e p) eqn:Ec.
  - exists e. split; [left; reflexivity|exact Ec].
  - rewrite xorb_false_l in H. destruct (IH H) as (e' & He' & Hc'). exists e'. split; [right; exact He'|exact Hc'].
Qed.

Theorem no_common_interior_point (psX psY : list pt) :
  boundary_outside psX psY -> boundary_outside psY psX ->
  forall k P, 0 < k -> parityb (edges_at k psX) P = true -> parityb (edges_at k psY) P = true -> False.
Proof.
  intros HXY HYX.
  assert (D : forall n k P C, 0 < k -> parityb (edges_at k psX) P = true -> parityb (edges_at k psY) P = true ->
     (on_boundary (edges_at k psX) C \/ on_boundary (edges_at k psY) C) ->
     (nmeet (edges_at k psX) P C + nmeet (edges_at k psY) P C < n)%nat -> False).
  { induction n as [|n IH]; intros k P C Hk PX PY HC Hn; [lia|].
    destruct HC as [HC|HC].
    - apply (descent_step psY psX n HYX HXY) with (k := k) (P := P) (C := C); try assumption.
      + intros k' P' C' Hk' PY' PX' HC' Hn'. apply (IH k' P' C' Hk' PX' PY'); [tauto|lia].
      + lia.
    - apply (descent_step psX psY n HXY HYX IH k P C); assumption. }
  intros k P Hk PX PY.
  (* a boundary point of Y: an end of an edge crossed by the ray from P *)
  destruct (parity_true_crossing _ P PY) as ([a b] & He & _).
  apply (D (S (nmeet (edges_at k psX) P a + nmeet (edges_at k psY) P a)) k P a Hk PX PY).
  - right. exists (a, b). split; [exact He|apply on_seg_left].
  - lia.
Qed.

Print Assumptions no_common_interior_point.

(* the edges of a ring form a path through all its points that starts at the first one *)
Lemma ring_edges_closed_path' (ps : list pt) : (3 <= length ps)%nat ->
  exists l, ring_edges ps = path_segs l /\ (forall p, In p ps -> In p l) /\ hd pt0 l = hd pt0 ps.
Proof.
  intros H3. exists (closed_path ps). split; [symmetry; apply closed_path_segs, H3|]. split; [|apply closed_path_hd].
  intros p Hp. apply closed_path_in; [intros ->; destruct Hp|exact Hp].
Qed.

(* a property that crosses every edge of a path holds along the whole path *)
Lemma path_invariant (P : pt -> Prop) (l : list pt) :
  (forall u v, In (u, v) (path_segs l) -> (P u <-> P v)) -> (exists x, In x l /\ P x) -> forall y, In y l -> P y.
Proof.
  induction l as [|a l IH]; intros Hstep (x & Hx & Px) y Hy; [destruct Hy|].
  destruct l as [|b r].
  - destruct Hx as [<-|[]]. destruct Hy as [<-|[]]. exact Px.
  - assert (Hab : P a <-> P b) by (apply Hstep; left; reflexivity).
    assert (Hstep' : forall u v, In (u, v) (path_segs (b :: r)) -> (P u <-> P v)) by (intros u v H; apply Hstep; right; exact H).
    assert (Pb : P b).
    { destruct Hx as [<-|Hx]; [apply Hab; exact Px|]. apply (IH Hstep' (ex_intro _ x (conj Hx Px)) b). left. reflexivity. }
    destruct Hy as [<-|Hy]; [apply Hab; exact Pb|]. apply (IH Hstep' (ex_intro _ b (conj (or_introl eq_refl) Pb)) y Hy).
Qed.

Lemma path_const (f : pt -> bool) (l : list pt) :
  (forall u v, In (u, v) (path_segs l) -> f u = f v) -> forall x, In x l -> f x = f (hd pt0 l).
Proof.
  intros H x Hx. apply (path_invariant (fun y => f y = f (hd pt0 l)) l); [| |exact Hx].
  - intros u v Huv. rewrite (H u v Huv). tauto.
  - exists (hd pt0 l). split; [destruct l; [destruct Hx|left; reflexivity]|reflexivity].
Qed.

Section NoShare.
Variables ps qs : list pt.
Hypothesis NoShare : forall sg, In sg (ring_edges qs) -> ~ shares_point ps (fst sg) (snd sg).

(* every boundary point of Q is outside the closed ring P *)
Lemma noshare_boundary_outside : boundary_outside ps qs.
Proof.
  intros k e S Hk He Hon. rewrite edges_at_map in He by exact Hk. apply in_map_iff in He.
  destruct He as ([a b] & <- & He0). destruct (in_ringb (edges_at k ps) S) eqn:Ein; [exfalso|reflexivity].
  apply (NoShare (a, b) He0). exists k, S. split; [exact Hk|]. split; [exact Hon|exact Ein].
Qed.

(* edges of the two rings never meet: a common point would be a boundary point of Q in the closed ring P *)
Lemma noshare_edges_apart e f : In e (ring_edges ps) -> In f (ring_edges qs) -> ~ seg_meet f e.
Proof.
  intros He Hf Hm. destruct e as [a b].
  destruct (meet_boundary_point ps (a, b) (fst f) (snd f) He) as (k & T & Hk & On & Hb).
  { apply seg_meet_sym. destruct f. exact Hm. }
  apply (NoShare f Hf). exists k, T. split; [exact Hk|]. split; [exact On|]. unfold in_ringb. rewrite Hb. reflexivity.
Qed.

(* the Q-parity is the same at the two ends of every edge of P *)
Lemma noshare_edge_ends u v : In (u, v) (ring_edges ps) -> parityb (ring_edges qs) u = parityb (ring_edges qs) v.
Proof. intros He. apply parity_constant_off_boundary. intros f Hf. apply (noshare_edges_apart (u, v) f He Hf). Qed.

(* every vertex of P has the Q-parity of the first one *)
Lemma noshare_vertices_same : (3 <= length ps)%nat ->
  forall p, In p ps -> parityb (ring_edges qs) p = parityb (ring_edges qs) (hd pt0 ps).
Proof.
  intros H3 p Hp. destruct (ring_edges_closed_path' ps H3) as (l & Hl & Hsub & Hhd).
  rewrite <- Hhd. apply (path_const (parityb (ring_edges qs)) l).
  - intros u v Huv. apply noshare_edge_ends. rewrite Hl. exact Huv.
  - apply Hsub. exact Hp.
Qed.

(* when the vertices of P have even Q-parity: every boundary point of P is outside the closed ring Q *)
Lemma noshare_boundary_outside_rev : (3 <= length ps)%nat ->
  parityb (ring_edges qs) (hd pt0 ps) = false -> boundary_outside qs ps.
Proof.
  intros H3 Hpar k e S Hk He Hon. rewrite edges_at_map in He by exact Hk. apply in_map_iff in He.
  destruct He as ([u v] & <- & He).
  (* no edge of Q meets the edge u-v of P: S is off Q's boundary and has the Q-parity of u *)
  destruct (nomeet_status qs u v k S Hk (fun f Hf => noshare_edges_apart (u, v) f He Hf) Hon) as [Hb Hp].
  apply in_ringb_false_iff. split; [exact Hb|]. unfold edges_at. rewrite Hp.
  rewrite (noshare_vertices_same H3 u (proj1 (ring_edges_endpoints ps u v He))). exact Hpar.
Qed.

End NoShare.

Lemma crossing_right (a b p : pt) :
  crossesb (a, b) p = true ->
  px p < Z.max (px a) (px b) /\ Z.min (py a) (py b) <= py p < Z.max (py a) (py b).
Proof.
  rewrite crossesb_iff. destruct a as [ax ay], b as [bx by_], p as [x y].
  unfold crosses, cross, px, py. cbn [fst snd].
  intros [[[H1 H2] H3]|[[H1 H2] H3]]; (split; [|lia]).
  - destruct (Z.lt_ge_cases x (Z.max ax bx)) as [?|G]; [assumption|exfalso].
    assert (0 <= (x - bx) * (y - ay)) by nia. assert (0 <= (x - ax) * (by_ - y)) by nia. nia.
  - destruct (Z.lt_ge_cases x (Z.max ax bx)) as [?|G]; [assumption|exfalso].
    assert (0 <= (x - ax) * (y - by_)) by nia. assert (0 <= (x - bx) * (ay - y)) by nia. nia.
Qed.

Lemma area_lt w h w' h' : 0 <= w < w' -> 0 <= h <= h' -> 0 < h' -> w * h < w' * h'.
Proof. nia. Qed.

Lemma nested_bigger_box (ps qs : list pt) : ps <> [] ->
  (forall p, In p ps -> parityb (ring_edges qs) p = true) ->
  rect_area (bbox_spec ps) < rect_area (bbox_spec qs).
Proof.
  intros Hne Hall.
  destruct (bbox_spec_attained ps Hne) as (p1 & p2 & p3 & p4 & I1 & I2 & I3 & I4 & E1 & E2 & E3 & E4).
  cbv zeta in *.
  assert (Hin : forall p, In p ps -> inbox (bbox_spec qs) p).
  { intros p Hp. apply rect_contains_point_inbox. apply in_ringb_in_bbox. unfold in_ringb.
    rewrite (Hall p Hp). apply orb_true_r. }
  pose proof (Hin p1 I1) as B1. pose proof (Hin p2 I2) as B2. pose proof (Hin p3 I3) as B3. pose proof (Hin p4 I4) as B4.
  destruct (parity_true_crossing _ p3 (Hall p3 I3)) as ([a b] & He & Hc).
  destruct (ring_edges_endpoints qs a b He) as [Ha Hb].
  pose proof (bbox_spec_tight qs a Ha) as Ta. pose proof (bbox_spec_tight qs b Hb) as Tb. cbv zeta in Ta, Tb.
  pose proof (crossing_right a b p3 Hc) as [Cx Cy].
  pose proof (bbox_spec_tight ps p1 I1) as T1. pose proof (bbox_spec_tight ps p2 I2) as T2. cbv zeta in T1, T2.
  unfold inbox in *. destruct (bbox_spec ps) as [[mnx mny] [mxx mxy]], (bbox_spec qs) as [[qnx qny] [qxx qxy]].
  unfold rect_area, px, py in *. cbn [fst snd] in *. apply area_lt; lia.
Qed.

(* a point of the k-fold scaled closed ring lies in the k-fold scaled bounding box *)
Lemma in_ring_scaled_box (ps : list pt) (k : Z) (P : pt) : 0 < k -> ps <> [] ->
  in_ringb (edges_at k ps) P = true ->
  k * px (fst (bbox_spec ps)) <= px P <= k * px (snd (bbox_spec ps)) /\
  k * py (fst (bbox_spec ps)) <= py P <= k * py (snd (bbox_spec ps)).
Proof.
  intros Hk Hne Hin. unfold edges_at in Hin. apply in_ringb_in_bbox, rect_contains_point_inbox in Hin.
  change (map (sc k) ps) with (map (aff k 0 0) ps) in Hin.
  rewrite <- points_rect_tight, (points_rect_aff k 0 0 Hk ps Hne), points_rect_tight in Hin.
  unfold inbox, affr, aff, px, py in *. cbn [fst snd] in *. lia.
Qed.

Definition rings_share_point (ps qs : list pt) : Prop :=
  exists k P, 0 < k /\ in_ringb (edges_at k ps) P = true /\ in_ringb (edges_at k qs) P = true.

Lemma noshare_disjoint (ps qs : list pt) :
  (3 <= length ps)%nat ->
  rect_area (bbox_spec qs) <= rect_area (bbox_spec ps) ->
  (forall sg, In sg (ring_edges qs) -> ~ shares_point ps (fst sg) (snd sg)) ->
  ~ rings_share_point ps qs.
Proof.
  intros H3 Harea NoShare (k & P & Hk & InP & InQ).
  pose proof (noshare_boundary_outside ps qs NoShare) as HA.
  (* P is not a boundary point of Q *)
  assert (NbQ : on_boundaryb (edges_at k qs) P = false).
  { apply not_on_boundary. intros f Hf Honf. rewrite (HA k f P Hk Hf Honf) in InP. discriminate InP. }
  assert (PQ : parityb (edges_at k qs) P = true).
  { unfold in_ringb in InQ. rewrite NbQ in InQ. exact InQ. }
  destruct (parityb (ring_edges qs) (hd pt0 ps)) eqn:Hc.
  - (* nested: every vertex of P strictly inside Q *)
    assert (Hne : ps <> []) by (intros ->; cbn in H3; lia).
    pose proof (nested_bigger_box ps qs Hne) as NB.
    assert (rect_area (bbox_spec ps) < rect_area (bbox_spec qs)); [|lia].
    apply NB. intros p Hp. rewrite (noshare_vertices_same ps qs NoShare H3 p Hp). exact Hc.
  - pose proof (noshare_boundary_outside_rev ps qs NoShare H3 Hc) as HB.
    assert (NbP : on_boundaryb (edges_at k ps) P = false).
    { apply not_on_boundary. intros e He Hone. rewrite (HB k e P Hk He Hone) in InQ. discriminate InQ. }
    assert (PP : parityb (edges_at k ps) P = true).
    { unfold in_ringb in InP. rewrite NbP in InP. exact InP. }
    exact (no_common_interior_point ps qs HA HB k P Hk PP PQ).
Qed.

Lemma shares_point_rings (ps : list pt) (sg : seg) (qs : list pt) :
  In sg (ring_edges qs) -> shares_point ps (fst sg) (snd sg) -> rings_share_point ps qs.
Proof.
  intros Hin (k & P & Hk & Hon & HinP). exists k, P. split; [exact Hk|]. split; [exact HinP|].
  unfold in_ringb. rewrite (on_boundary_edge _ P (scs k sg)); [reflexivity| |destruct sg; exact Hon].
  rewrite edges_at_map by exact Hk. apply in_map. exact Hin.
Qed.

Lemma rings_share_point_sym ps qs : rings_share_point ps qs -> rings_share_point qs ps.
Proof. intros (k & P & Hk & H1 & H2). exists k, P. tauto. Qed.

Lemma rings_share_point_comm ps qs : rings_share_point ps qs <-> rings_share_point qs ps.
Proof. split; apply rings_share_point_sym. Qed.

(* the test ringIntersectsRing makes: the edges of the ring with the smaller box against the other ring *)
Lemma smaller_box_edges_decide (ps qs : list pt) :
  (3 <= length ps)%nat -> rect_area (bbox_spec qs) <= rect_area (bbox_spec ps) ->
  (existsb (fun sg => ring_intersects_segment (RS {| closed := true; pts := ps |}) sg true) (ring_edges qs) = true <->
   rings_share_point ps qs).
Proof.
  intros H3 Harea. split.
  - intros H. apply existsb_exists in H. destruct H as ([a b] & Hin & Hm).
    apply ring_intersects_segment_pointset in Hm. apply (shares_point_rings ps (a, b) qs Hin Hm).
  - intros Hsh. apply not_false_is_true. intros Ex. rewrite existsb_false_iff in Ex.
    apply (noshare_disjoint ps qs H3 Harea); [|exact Hsh].
    intros [a b] Hin Hs. cbn [fst snd] in Hs. apply (proj2 (ring_intersects_segment_pointset ps a b)) in Hs.
    rewrite (Ex (a, b) Hin) in Hs. discriminate Hs.
Qed.

Theorem ring_intersects_ring_pointset (ps qs : list pt) :
  ring_intersects_ring (RS {| closed := true; pts := ps |}) (RS {| closed := true; pts := qs |}) true = true <->
  (3 <= length ps)%nat /\ (3 <= length qs)%nat /\ rings_share_point ps qs.
Proof.
  fold (Rg ps). fold (Rg qs). unfold ring_intersects_ring. rewrite !Rg_empty.
  destruct (Nat.ltb_spec (length ps) 3) as [S1|H1]; cbn [orb].
  { split; [discriminate|]. intros (? & _). lia. }
  destruct (Nat.ltb_spec (length qs) 3) as [S2|H2].
  { split; [discriminate|]. intros (_ & ? & _). lia. }
  rewrite (Rg_rect ps H1), (Rg_rect qs H2).
  assert (Hbox : rings_share_point ps qs -> rect_intersects_rect (bbox_spec ps) (bbox_spec qs) = true).
  { intros (k & P & Hk & I1 & I2).
    assert (Hne1 : ps <> []) by (intros ->; cbn in H1; lia).
    assert (Hne2 : qs <> []) by (intros ->; cbn in H2; lia).
    pose proof (in_ring_scaled_box ps k P Hk Hne1 I1) as B1. pose proof (in_ring_scaled_box qs k P Hk Hne2 I2) as B2.
    apply rir_iff. nia. }
  destruct (rect_intersects_rect (bbox_spec ps) (bbox_spec qs)); cbn [negb].
  2:{ split; [discriminate|]. intros (_ & _ & Hsh). discriminate (Hbox Hsh). }
  destruct (Z.ltb_spec (rect_area (bbox_spec ps)) (rect_area (bbox_spec qs))) as [Lt|Ge]; rewrite Rg_segs; unfold Rg.
  - rewrite (smaller_box_edges_decide qs ps H2), (rings_share_point_comm qs ps) by lia. tauto.
  - rewrite (smaller_box_edges_decide ps qs H1 Ge). tauto.
Qed.

(* operand order cannot matter *)
Corollary ring_intersects_ring_sym (ps qs : list pt) :
  ring_intersects_ring (RS {| closed := true; pts := ps |}) (RS {| closed := true; pts := qs |}) true =
  ring_intersects_ring (RS {| closed := true; pts := qs |}) (RS {| closed := true; pts := ps |}) true.
Proof.
  apply bool_eq_iff. rewrite !ring_intersects_ring_pointset, (rings_share_point_comm qs ps). tauto.
Qed.

Print Assumptions ring_intersects_ring_pointset.
Print Assumptions ring_intersects_ring_sym.

(* Poly.IntersectsPoly without holes is ringIntersectsRing of the exteriors, operands exchanged *)
Lemma poly_intersects_poly_bare (r o : rng) :
  poly_intersects_poly {| exterior := r; holes := [] |} {| exterior := o; holes := [] |} = ring_intersects_ring o r true.
Proof. unfold poly_intersects_poly. cbn [exterior holes existsb]. destruct (ring_intersects_ring o r true); reflexivity. Qed.

Theorem poly_intersects_poly_noholes (e1 e2 : list pt) :
  poly_intersects_poly (Pg e1 []) (Pg e2 []) = true <->
  (3 <= length e1)%nat /\ (3 <= length e2)%nat /\ rings_share_point e1 e2.
Proof.
  unfold Pg. cbn [map]. rewrite poly_intersects_poly_bare. unfold Rg.
  rewrite ring_intersects_ring_pointset, (rings_share_point_comm e2 e1). tauto.
Qed.

(* Poly.IntersectsPoly is the symmetric test of the exteriors followed by two clauses on the holes,
   which change places with the operands *)
Theorem poly_intersects_poly_sym (e1 : list pt) (hs1 : list (list pt)) (e2 : list pt) (hs2 : list (list pt)) :
  poly_intersects_poly (Pg e1 hs1) (Pg e2 hs2) = poly_intersects_poly (Pg e2 hs2) (Pg e1 hs1).
Proof.
  unfold poly_intersects_poly, Pg, Rg. cbn [exterior holes]. rewrite (ring_intersects_ring_sym e2 e1).
  destruct (ring_intersects_ring _ _ true); cbn [negb]; [|reflexivity].
  destruct (existsb _ (map _ hs1)), (existsb _ (map _ hs2)); reflexivity.
Qed.

Corollary poly_intersects_poly_noholes_sym (e1 e2 : list pt) :
  poly_intersects_poly (Pg e1 []) (Pg e2 []) = poly_intersects_poly (Pg e2 []) (Pg e1 []).
Proof. apply poly_intersects_poly_sym. Qed.

Theorem poly_intersects_line_noholes (e qs : list pt) :
  poly_intersects_line (Pg e []) (Lr qs) = true <->
  (3 <= length e)%nat /\ (2 <= length qs)%nat /\
  exists sg, In sg (path_segs qs) /\ shares_point e (fst sg) (snd sg).
Proof.
  unfold poly_intersects_line, Pg, Rg, Lr. cbn [exterior holes map existsb].
  rewrite <- ring_intersects_line_pointset.
  destruct (ring_intersects_line _ _ true); cbn [negb]; tauto.
Qed.

Print Assumptions poly_intersects_poly_noholes.
Print Assumptions poly_intersects_line_noholes.
