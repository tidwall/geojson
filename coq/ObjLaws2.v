(* ObjLaws2.v — property C09: "if A contains a non-empty B then A intersects B" for Line and Polygon
   receivers (ObjLaws.v has Point and Rect receivers).  Contains hands over one point of B that lies on
   / in A (the first vertex of B, or the minimum corner of a flat box); the point-set characterisations
   of Intersects (PairProofs, JordanQ, JordanRing, JordanRect) turn that shared point into the answer true. *)
From GJ Require Import Base KernelSpec SeriesSpec Ring RingSpec PairSpec Pairs PairProofs RaycastProofs
  SeriesProofs PipProofs LineProofs ContainsBoxes CoversBoxes Jordan JordanQ JordanRing JordanRect ObjSelf.
Import ListNotations.
Open Scope Z_scope.

Lemma seg_meet_touch (s sg : seg) : on_seg s (fst sg) -> seg_meet s sg.
Proof. destruct s as [a b], sg as [c d]. cbn [fst]. intros H. left. exact H. Qed.

(* Line.ContainsLine hands over, for each segment of the argument, a receiver segment through its first end *)
Lemma lcl_touch (ps : list pt) (o : rng) (sg : seg) : line_contains_line (Lr ps) o = Some true -> In sg (ring_segments o) ->
  (2 <= length ps)%nat /\ exists s, In s (path_segs ps) /\ on_seg s (fst sg).
Proof.
  intros E Hsg. unfold line_contains_line in E. destruct (ring_empty (Lr ps)) eqn:Ep; [discriminate|].
  destruct (ring_empty o); [discriminate|]. cbn [orb] in E.
  rewrite Lr_empty, Nat.ltb_ge in Ep. split; [exact Ep|].
  destruct (line_covers_true_touch (Lr ps) sg (proj1 (all_some_true_iff _) E _ (in_map _ _ _ Hsg))) as (s & Hs & Hon).
  exists s. rewrite Lr_segs in Hs. split; [exact Hs|]. apply raycast_on_iff. exact Hon.
Qed.

Theorem line_contains_line_intersects (ps qs : list pt) :
  line_contains_line (Lr ps) (Lr qs) = Some true -> line_intersects_line (Lr ps) (Lr qs) = true.
Proof.
  intros E. assert (Eq : ring_empty (Lr qs) = false).
  { unfold line_contains_line in E. destruct (ring_empty (Lr qs)); [|reflexivity]. rewrite orb_true_r in E. discriminate. }
  destruct (first_segment qs Eq) as (sg & Hsg & _). destruct (lcl_touch ps (Lr qs) sg E Hsg) as (Lp & s & Hs & Hon).
  rewrite Lr_empty, Nat.ltb_ge in Eq. rewrite Lr_segs in Hsg.
  apply line_intersects_line_spec. split; [exact Lp|]. split; [exact Eq|].
  exists s, sg. split; [exact Hs|]. split; [exact Hsg|]. apply seg_meet_touch. exact Hon.
Qed.

(* the minimum corner of a flat box over a point list is one of the points *)
Lemma flat_box_corner (ps : list pt) (mn mx : pt) : ps <> [] -> bbox_spec ps = (mn, mx) ->
  px mn = px mx \/ py mn = py mx -> In mn ps.
Proof.
  intros Hne Eb Hflat.
  destruct (bbox_spec_attained ps Hne) as (p1 & p2 & p3 & p4 & I1 & I2 & I3 & I4 & E1 & E2 & E3 & E4).
  cbv zeta in *. rewrite Eb in *. cbn [fst snd] in *.
  pose proof (bbox_spec_tight ps p1 I1) as T1. pose proof (bbox_spec_tight ps p2 I2) as T2. cbv zeta in T1, T2.
  rewrite Eb in T1, T2. cbn [fst snd] in T1, T2.
  destruct Hflat as [Hx|Hy].
  - assert (p2 = mn) as <-; [|exact I2]. destruct p2, mn. unfold px, py in *. cbn [fst snd] in *. f_equal; lia.
  - assert (p1 = mn) as <-; [|exact I1]. destruct p1, mn. unfold px, py in *. cbn [fst snd] in *. f_equal; lia.
Qed.

Theorem line_contains_poly_intersects (ps e : list pt) :
  line_contains_poly (Lr ps) (Pg e []) = Some true -> line_intersects_poly (Lr ps) (Pg e []) = true.
Proof.
  intros E. unfold line_contains_poly in E. rewrite Pg_empty in E.
  destruct (ring_empty (Lr ps)); [discriminate|]. cbn [orb] in E.
  destruct (Nat.ltb_spec (length e) 3) as [|H3]; [discriminate|]. rewrite (Pg_rect e [] H3) in E.
  destruct (bbox_spec e) as [mn mx] eqn:Er.
  destruct (negb (px mn =? px mx) && negb (py mn =? py mx)) eqn:Ef; [discriminate|].
  destruct (lcl_touch ps (diag_line mn mx) (mn, mx) E (or_introl eq_refl)) as (L2 & s & Hs & Hon).
  assert (Hin : In mn e).
  { apply (flat_box_corner e mn mx (length_nonnil e 2 H3) Er).
    apply andb_false_iff in Ef. rewrite !negb_false_iff, !Z.eqb_eq in Ef. exact Ef. }
  unfold line_intersects_poly. apply poly_intersects_line_noholes. split; [exact H3|]. split; [exact L2|].
  exists s. split; [exact Hs|]. exists 1, mn. split; [lia|]. rewrite !sc_1. split; [destruct s; exact Hon|].
  rewrite map_sc_1. apply vertex_on_boundary; assumption.
Qed.

(* a Rect used as a polygon is the polygon of its five corner points *)
Lemma rect_poly_Pg (q : rect) : rect_wf q -> rect_poly q = Pg (rect_points q) [].
Proof. intros Hw. unfold rect_poly, Pg, Rg. cbn [map]. rewrite (RR_as_RS q Hw). reflexivity. Qed.

Theorem line_contains_rect_intersects (ps : list pt) (q : rect) : rect_wf q ->
  line_contains_rect (Lr ps) q = Some true -> line_intersects_rect (Lr ps) q = true.
Proof.
  intros Hw E. pose proof (line_contains_poly_intersects ps (rect_points q)) as H. rewrite <- (rect_poly_Pg q Hw) in H.
  specialize (H E). unfold line_intersects_poly, poly_intersects_line in H. cbn [rect_poly exterior] in H.
  unfold line_intersects_rect. destruct (ring_intersects_line (RR q) (Lr ps) true); [reflexivity|discriminate].
Qed.

Lemma rcr_nonempty (r o : rng) allow : ring_contains_ring r o allow = true -> ring_empty r = false /\ ring_empty o = false.
Proof.
  unfold ring_contains_ring. destruct (ring_empty r); [discriminate|]. destruct (ring_empty o); [discriminate|]. auto.
Qed.

(* below the bounding-box shortcut, ringContainsRing has tested the first end of every segment of the
   argument: as a vertex when the receiver is flagged convex, as an end of the segment otherwise *)
Lemma rcr_short_hit (r o : rng) (allow : bool) (sg : seg) :
  (ring_npoints o < 16)%nat -> In sg (ring_segments o) -> In (fst sg) (ring_points o) ->
  ring_contains_ring r o allow = true -> rcp_hit r (fst sg) allow = true.
Proof.
  intros Hs Hsg Hpt H. unfold ring_contains_ring in H. destruct (ring_empty r || ring_empty o) eqn:Ee; [discriminate|].
  assert (E : (complexRingMinPoints <=? ring_npoints o)%nat = false) by (apply Nat.leb_gt; exact Hs).
  rewrite E in H. cbn [andb] in H. unfold rcr_core in H. rewrite Ee in H.
  destruct (negb (rect_contains_rect (ring_rect r) (ring_rect o))); [discriminate|].
  destruct (ring_convex r); rewrite forallb_forall in H.
  - apply H. exact Hpt.
  - apply (rcs_endpoints_in r sg allow). apply H. exact Hsg.
Qed.

(* containment of a short line by a ring implies the ring meets it — in both modes *)
Lemma rcr_ril (r : rng) (qs : list pt) (allow : bool) : (length qs < 16)%nat ->
  ring_contains_ring r (Lr qs) allow = true -> ring_intersects_line r (Lr qs) allow = true.
Proof.
  intros Hs H. pose proof (ring_contains_ring_boxes _ _ _ H) as Hb. destruct (rcr_nonempty _ _ _ H) as [Er Eq].
  destruct (first_segment qs Eq) as (sg & Hsg & Hin).
  assert (Hhit : rcp_hit r (fst sg) allow = true).
  { apply (rcr_short_hit r (Lr qs) allow sg); unfold ring_npoints; rewrite ?Lr_pts; assumption. }
  unfold ring_intersects_line. rewrite Er, Eq, (rcr_rir _ _ (line_rect_wf qs Eq) Hb), Lr_pts. cbn [orb negb].
  assert (Ex : existsb (fun p => rcp_hit r p allow) qs = true) by (apply existsb_exists; exists (fst sg); split; assumption).
  rewrite Ex. reflexivity.
Qed.

Theorem poly_contains_line_intersects (e : list pt) (hs : list (list pt)) (qs : list pt) : (length qs < 16)%nat ->
  poly_contains_line (Pg e hs) (Lr qs) = true -> poly_intersects_line (Pg e hs) (Lr qs) = true.
Proof.
  intros Hs. unfold poly_contains_line, poly_intersects_line.
  destruct (ring_contains_ring (exterior (Pg e hs)) (Lr qs) true) eqn:E; cbn [negb]; [|discriminate].
  rewrite (rcr_ril _ qs true Hs E). cbn [negb]. intros H. apply negb_true_iff in H. apply negb_true_iff.
  destruct (existsb (fun h => ring_contains_ring h (Lr qs) false) (holes (Pg e hs))) eqn:X; [|reflexivity].
  apply existsb_exists in X. destruct X as (h & Hh & Hc).
  assert (T : existsb (fun h => ring_intersects_line h (Lr qs) false) (holes (Pg e hs)) = true).
  { apply existsb_exists. exists h. split; [exact Hh|]. apply (rcr_ril h qs false Hs Hc). }
  congruence.
Qed.

Lemma rcr_area (R r : rect) : rect_wf r -> rect_contains_rect R r = true -> rect_area r <= rect_area R.
Proof.
  intros [W1 W2] H. apply rcr_iff in H. destruct R as [mn mx], r as [mn' mx']. cbn [rect_area fst snd] in *.
  apply Z.mul_le_mono_nonneg; lia.
Qed.

Lemma rcp_hit_in_rect (r : rng) (p : pt) (allow : bool) : rcp_hit r p allow = true -> rect_contains_point (ring_rect r) p = true.
Proof.
  unfold rcp_hit, ring_contains_point. destruct (rect_contains_point (ring_rect r) p); [reflexivity|]. cbn [negb fst]. discriminate.
Qed.

Lemma seg_rect_has_fst (sg : seg) : rect_contains_point (seg_rect sg) (fst sg) = true.
Proof. destruct sg as [a b]. unfold seg_rect. rect_lia. Qed.

(* a ring that contains another and has accepted the first end of one of its segments meets it — in
   both modes: the rectangles meet, the receiver is not the smaller one, and that end is a shared point *)
Lemma rcr_rir_gen (r o : rng) (allow : bool) (sg : seg) :
  rect_wf (ring_rect o) -> In sg (ring_segments o) -> rcp_hit r (fst sg) allow = true ->
  ring_contains_ring r o allow = true -> ring_intersects_ring r o allow = true.
Proof.
  intros Hw Hsg Hhit H. pose proof (ring_contains_ring_boxes _ _ _ H) as Hb. destruct (rcr_nonempty _ _ _ H) as [Er Eo].
  unfold ring_intersects_ring. rewrite Er, Eo, (rcr_rir _ _ Hw Hb). cbn [orb negb].
  pose proof (rcr_area _ _ Hw Hb) as Ha. destruct (Z.ltb_spec (rect_area (ring_rect r)) (rect_area (ring_rect o))) as [?|_]; [lia|].
  apply existsb_exists. exists sg. split; [exact Hsg|]. unfold ring_intersects_segment.
  rewrite (two_points_meet _ _ (fst sg) (seg_rect_has_fst sg) (rcp_hit_in_rect _ _ _ Hhit)). cbn [negb].
  rewrite Hhit. reflexivity.
Qed.

Lemma Rg_first (f : list pt) : (3 <= length f)%nat -> exists sg, In sg (ring_edges f) /\ In (fst sg) f.
Proof.
  intros H3. destruct (ring_edges_closed_path f H3) as (qs & Hqs & _ & Hq3).
  destruct qs as [|x [|y l']]; cbn in Hq3; try lia.
  assert (Hxy : In (x, y) (ring_edges f)) by (rewrite Hqs; left; reflexivity).
  exists (x, y). split; [exact Hxy|apply (ring_edges_endpoints f x y Hxy)].
Qed.

Theorem poly_contains_poly_intersects (e : list pt) (hs : list (list pt)) (f : list pt) : (length f < 16)%nat ->
  poly_contains_poly (Pg e hs) (Pg f []) = true -> poly_intersects_poly (Pg e hs) (Pg f []) = true.
Proof.
  intros Hs. unfold poly_contains_poly, poly_intersects_poly. cbn [exterior holes Pg map existsb].
  destruct (ring_contains_ring (Rg e) (Rg f) true) eqn:E; cbn [negb]; [|discriminate].
  destruct (rcr_nonempty _ _ _ E) as [Ne Nf]. pose proof (ring_rect_wf f Nf) as Wf. rewrite Rg_empty, Nat.ltb_ge in Ne, Nf.
  destruct (Rg_first f Nf) as (sg & Hsg & Hin).
  (* below the shortcut, a containing ring has tested the first vertex of f *)
  assert (Hit : forall h allow, ring_contains_ring h (Rg f) allow = true -> rcp_hit h (fst sg) allow = true).
  { intros h allow. apply rcr_short_hit; unfold ring_npoints; rewrite ?Rg_segs, ?Rg_pts; assumption. }
  (* the exteriors share it *)
  assert (X : ring_intersects_ring (Rg f) (Rg e) true = true).
  { apply ring_intersects_ring_pointset. split; [exact Nf|]. split; [exact Ne|].
    exists 1, (fst sg). split; [lia|]. rewrite !edges_at_1. split; [apply vertex_on_boundary; assumption|].
    rewrite <- rcp_hit_in_ringb. apply (Hit (Rg e) true E). }
  rewrite X. cbn [negb]. intros H. rewrite forallb_forall in H.
  destruct (existsb (fun h => ring_contains_ring h (Rg f) false) (map Rg hs)) eqn:Y; [|reflexivity].
  apply existsb_exists in Y. destruct Y as (h & Hh & Hc).
  assert (Hi : ring_intersects_ring h (Rg f) false = true).
  { apply (rcr_rir_gen h (Rg f) false sg Wf); [rewrite Rg_segs; exact Hsg|exact (Hit h false Hc)|exact Hc]. }
  specialize (H h Hh). rewrite Hi in H. discriminate.
Qed.

Theorem poly_contains_rect_intersects (e : list pt) (hs : list (list pt)) (q : rect) : rect_wf q ->
  poly_contains_rect (Pg e hs) q = true -> poly_intersects_rect (Pg e hs) q = true.
Proof.
  intros Hw. unfold poly_contains_rect, poly_intersects_rect. rewrite (rect_poly_Pg q Hw).
  apply poly_contains_poly_intersects. destruct q as [[a b] [c d]]. cbn. lia.
Qed.

(* fewer than 16 points: below the bounding-box shortcut of ringContainsRing *)
Definition short (s : shape) : Prop :=
  match s with SLine ps => (length ps < 16)%nat | SPoly e _ => (length e < 16)%nat | _ => True end.

(* the hypotheses are met by contact configurations: a line along a polygon's edge, a triangle in a
   polygon with a hole, a flat rectangle on a line *)
Example law_poly_line_edge :
  g_contains (g_of_shape (SPoly [(0,0);(8,0);(8,8);(0,8);(0,0)] [[(2,2);(4,2);(4,4);(2,4);(2,2)]])) (g_of_shape (SLine [(0,0);(8,0);(8,3)])) = Some true /\
  g_intersects (g_of_shape (SPoly [(0,0);(8,0);(8,8);(0,8);(0,0)] [[(2,2);(4,2);(4,4);(2,4);(2,2)]])) (g_of_shape (SLine [(0,0);(8,0);(8,3)])) = true.
Proof. vm_compute. split; reflexivity. Qed.

Example law_poly_poly_hole :
  g_contains (g_of_shape (SPoly [(0,0);(8,0);(8,8);(0,8);(0,0)] [[(2,2);(4,2);(4,4);(2,4);(2,2)]])) (g_of_shape (SPoly [(4,4);(7,4);(7,7);(4,4)] [])) = Some true.
Proof. vm_compute. reflexivity. Qed.

Example law_line_flat_rect :
  g_contains (g_of_shape (SLine [(0,0);(4,0);(9,0)])) (g_of_shape (SRect ((1,0),(6,0)))) = Some true /\
  g_intersects (g_of_shape (SLine [(0,0);(4,0);(9,0)])) (g_of_shape (SRect ((1,0),(6,0)))) = true.
Proof. vm_compute. split; reflexivity. Qed.

Example law_line_flat_poly :
  g_contains (g_of_shape (SLine [(0,0);(4,0);(9,0)])) (g_of_shape (SPoly [(1,0);(6,0);(3,0);(1,0)] [])) = Some true.
Proof. vm_compute. reflexivity. Qed.
