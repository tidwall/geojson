(* ContainsBoxes.v — "if A contains a non-empty B their rectangles intersect",
   for every pair of built geometries and every pair of object trees with
   well-formed rectangles: A's rectangle covers B's (CoversBoxes) and B's is not
   void.  With it the rectangle pre-filter disappears from the composition laws
   of collections (C10): contains and within. *)
From GJ Require Import Base Ring PairSpec PairProofs Pairs Obj ObjProofs BoxLaws CoversBoxes.
Open Scope Z_scope.

Lemma line_rect_wf (ps : list pt) : ring_empty (Lr ps) = false -> rect_wf (ring_rect (Lr ps)).
Proof. rewrite Lr_empty, Nat.ltb_ge. intros H. rewrite (Lr_rect ps H). apply bbox_wf, (length_nonnil ps 1 H). Qed.

Lemma ring_rect_wf (ps : list pt) : ring_empty (Rg ps) = false -> rect_wf (ring_rect (Rg ps)).
Proof. rewrite Rg_empty, Nat.ltb_ge. intros H. rewrite (Rg_rect ps H). apply bbox_wf, (length_nonnil ps 2 H). Qed.

Lemma first_segment (ps : list pt) : ring_empty (Lr ps) = false -> exists sg, In sg (ring_segments (Lr ps)) /\ In (fst sg) ps.
Proof.
  rewrite Lr_empty, Lr_segs, Nat.ltb_ge. intros H. destruct ps as [|a [|b r]]; cbn in H; try lia.
  exists (a, b). split; left; reflexivity.
Qed.

Definition g_nonempty (g : gshape) : bool :=
  match g with
  | GPoint _ | GRect _ => true
  | GLine l => negb (ring_empty l)
  | GPoly p => negb (poly_empty p)
  end.

Definition g_wf (g : gshape) : Prop := match g with GRect r => rect_wf r | _ => True end.

Inductive built2 : gshape -> Prop :=
| b2_point p : built2 (GPoint p)
| b2_rect r : built2 (GRect r)
| b2_line ps : built2 (GLine (Lr ps))
| b2_poly e hs : built2 (GPoly (Pg e hs))
| b2_nil : built2 (GPoly (mk_poly [])).

Lemma built2_built g : built2 g -> built g.
Proof. destruct 1; constructor. Qed.

(* the built geometries are those made from coordinates; NewPolygon(nil) is the polygon of no rings *)
Lemma built2_shape g : built2 g -> exists s, g = g_of_shape s.
Proof.
  intros [p|r|ps|e hs|]; [exists (SPoint p)|exists (SRect r)|exists (SLine ps)|exists (SPoly e hs)|exists (SPoly [] [])];
    reflexivity.
Qed.

Lemma g_rect_wf (g : gshape) : built2 g -> g_wf g -> g_nonempty g = true -> rect_wf (g_rect g).
Proof.
  intros B W N. destruct B as [p|r|ps|e hs|]; cbn [g_rect g_wf g_nonempty] in *.
  - unfold rect_wf. cbn [fst snd]. lia.
  - exact W.
  - apply line_rect_wf. apply negb_true_iff. exact N.
  - apply (ring_rect_wf e). apply negb_true_iff. exact N.
  - discriminate.
Qed.

Lemma rect_eqb_rir (r o : rect) : rect_wf r -> rect_eqb r o = true -> rect_intersects_rect o r = true.
Proof. intros W E. apply rect_eqb_eq in E. subst o. rect_lia. Qed.

Theorem g_contains_boxes (a b : gshape) : built2 a -> built2 b -> g_wf a -> g_wf b ->
  g_nonempty b = true -> gcb a b = true -> rect_intersects_rect (g_rect a) (g_rect b) = true.
Proof.
  intros Ba Bb _ Wb Nb H. apply (rcr_rir _ _ (g_rect_wf b Bb Wb Nb)).
  destruct (built2_shape a Ba) as [sa ->], (built2_shape b Bb) as [sb ->]. apply g_contains_covers, H.
Qed.

Print Assumptions g_contains_boxes.

Lemma o_rect_wf (b : obj) : obj_wf b -> o_empty b = false -> rect_wf (o_rect b).
Proof. intros Hw He. rewrite (o_rect_spec b Hw He). apply bbox_wf, nonempty_has_position, He. Qed.

(* b.Spatial().WithinX(g) for a non-empty b: the rectangles intersect *)
Theorem o_within_g_boxes (b : obj) : forall g, obj_wf b -> built2 g -> g_wf g -> o_empty b = false ->
  o_within_g b g = true -> rect_intersects_rect (o_rect b) (g_rect g) = true.
Proof.
  intros g Hw Bg _ He H. destruct (built2_shape g Bg) as [s ->]. rewrite rect_intersects_rect_sym.
  apply (rcr_rir _ _ (o_rect_wf b Hw He)), o_within_g_covers; assumption.
Qed.

Theorem o_contains_boxes (a : obj) : forall b, obj_wf a -> obj_wf b -> o_empty b = false ->
  o_contains a b = true -> rect_intersects_rect (o_rect a) (o_rect b) = true.
Proof. intros b Hwa Hwb He H. apply (rcr_rir _ _ (o_rect_wf b Hwb He)), o_contains_covers; assumption. Qed.

(* C10, for object trees whose rectangles are well formed (obj_wf): a collection contains X iff X has a
   non-empty part and every non-empty part is contained by some child *)
Theorem coll_contains_iff (k : Z) (cs : list obj) (x : obj) : obj_wf (OColl k cs) -> obj_wf x ->
  (o_contains (OColl k cs) x = true <->
   o_empty (OColl k cs) = false /\ nonempty_parts_c x <> [] /\
   forall p, In p (nonempty_parts_c x) -> exists c, In c cs /\ o_empty c = false /\ o_contains c p = true).
Proof.
  intros Hw Hwx. rewrite coll_contains_spec. split.
  - intros (H1 & H2 & H3). split; [exact H1|]. split; [exact H2|]. intros p Hp.
    destruct (H3 p Hp) as (c & A & B & _ & D). exists c. auto.
  - intros (H1 & H2 & H3). split; [exact H1|]. split; [exact H2|]. intros p Hp.
    destruct (H3 p Hp) as (c & A & B & D). exists c. repeat split; try assumption.
    apply in_nonempty in Hp. destruct Hp as [Hp Hpe].
    destruct (part_c_rect_in_obj x p Hwx Hp Hpe) as [_ Hwp].
    apply o_contains_boxes; try assumption. apply (obj_wf_child k cs c Hw A).
Qed.

(* C10, for a collection whose rectangles are well formed (obj_wf) and a geometry X built from coordinates
   (built2) with a well-formed rectangle (g_wf): within X iff non-empty and every child is non-empty and within X *)
Theorem coll_within_iff (k : Z) (cs : list obj) (g : gshape) : obj_wf (OColl k cs) -> built2 g -> g_wf g ->
  (o_within_g (OColl k cs) g = true <->
   o_empty (OColl k cs) = false /\ forall c, In c cs -> o_empty c = false /\ o_within_g c g = true).
Proof.
  intros Hw Bg Wg. rewrite coll_within_spec. split.
  - intros [H1 H2]. split; [exact H1|]. intros c Hc. destruct (H2 c Hc) as (A & _ & C). auto.
  - intros [H1 H2]. split; [exact H1|]. intros c Hc. destruct (H2 c Hc) as [A C]. repeat split; try assumption.
    apply o_within_g_boxes; try assumption. apply (obj_wf_child k cs c Hw Hc).
Qed.

Print Assumptions o_contains_boxes.
Print Assumptions coll_contains_iff.
Print Assumptions coll_within_iff.
