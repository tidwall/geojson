(* Symmetry.v — property C12: a map of the grid that is an involution, commutes with scaling,
   preserves "on the segment", negates the orientation test and preserves membership in closed
   rings leaves the answers unchanged: Segment.IntersectsSegment, Line.IntersectsLine and
   Line.ContainsPoint directly; the Intersects answers of ring x segment, ring x line string and
   ring x ring (polygons without holes) and point membership in polygons with holes through the
   point-set theorems ("the two closed sets share a rational point" is preserved).  Instances here:
   y -> -y and x <-> y; Mirror.v instantiates the same section for x -> -x, SymmetrySeg.v lists
   the instances of the segment and line results: the eight symmetries of the square. *)
From GJ Require Import Base Kernel KernelSpec Series Ring RingSpec KernelProofs IntersectsProofs PipProofs
  PairProofs Invariance JordanQ JordanRing MirrorY.
Open Scope Z_scope.

Section Transfer.
Variable tau : pt -> pt.
Hypothesis tau_tau : forall p, tau (tau p) = p.
Hypothesis tau_sc : forall k p, sc k (tau p) = tau (sc k p).
Hypothesis tau_on : forall s p, on_segb (taus tau s) (tau p) = on_segb s p.
Hypothesis tau_in : forall ps p, in_ringb (ring_edges (map tau ps)) (tau p) = in_ringb (ring_edges ps) p.
Hypothesis tau_cross : forall a b p, cross (tau a) (tau b) (tau p) = - cross a b p.

Lemma map_sc_tau k ps : map (sc k) (map tau ps) = map tau (map (sc k) ps).
Proof. rewrite !map_map. apply map_ext. intros p. apply tau_sc. Qed.

Lemma map_tau_tau ps : map tau (map tau ps) = ps.
Proof. rewrite map_map. rewrite <- (map_id ps) at 2. apply map_ext. intros p. apply tau_tau. Qed.

Lemma on_seg_tau a b p : on_seg (tau a, tau b) (tau p) <-> on_seg (a, b) p.
Proof. rewrite <- !on_segb_iff. change (tau a, tau b) with (taus tau (a, b)). rewrite tau_on. tauto. Qed.

(* segments and line strings: only "on the segment" and the sign of the orientation test matter *)
Lemma seg_meet_tau (s o : seg) : seg_meet (taus tau s) (taus tau o) <-> seg_meet s o.
Proof.
  destruct s as [a b], o as [c d]. unfold taus. cbn [fst snd]. unfold seg_meet.
  rewrite !on_seg_tau, !tau_cross. split; intros H; repeat (destruct H as [H|H]; [tauto|]); right; right; right; right; lia.
Qed.

Theorem intersects_segment_tau (s o : seg) : intersects_segment (taus tau s) (taus tau o) = intersects_segment s o.
Proof. apply bool_eq_iff. rewrite !intersects_segment_iff. apply seg_meet_tau. Qed.

Theorem line_intersects_line_tau (ps qs : list pt) :
  line_intersects_line (Lr (map tau ps)) (Lr (map tau qs)) = line_intersects_line (Lr ps) (Lr qs).
Proof.
  apply bool_eq_iff. rewrite !line_intersects_line_spec, !map_length, !(path_segs_tau tau). split.
  - intros (H1 & H2 & sa & sb & Ha & Hb & Hm). split; [exact H1|]. split; [exact H2|].
    apply in_map_iff in Ha. destruct Ha as (sa' & <- & Ha). apply in_map_iff in Hb. destruct Hb as (sb' & <- & Hb).
    exists sa', sb'. split; [exact Ha|]. split; [exact Hb|]. apply seg_meet_tau. exact Hm.
  - intros (H1 & H2 & sa & sb & Ha & Hb & Hm). split; [exact H1|]. split; [exact H2|].
    exists (taus tau sa), (taus tau sb). split; [apply in_map; exact Ha|]. split; [apply in_map; exact Hb|]. apply seg_meet_tau. exact Hm.
Qed.

Theorem line_contains_point_tau (ps : list pt) (p : pt) :
  line_contains_point_r (Lr (map tau ps)) (tau p) = line_contains_point_r (Lr ps) p.
Proof.
  rewrite !line_intersects_point_spec. unfold in_lineb. rewrite (path_segs_tau tau). apply (on_boundaryb_tau tau tau_on).
Qed.

Lemma shares_point_tau_1 ps A B : shares_point ps A B -> shares_point (map tau ps) (tau A) (tau B).
Proof.
  intros (k & P & Hk & Hon & Hin). exists k, (tau P). split; [exact Hk|]. split.
  - rewrite !tau_sc. apply on_seg_tau. exact Hon.
  - rewrite map_sc_tau, tau_in. exact Hin.
Qed.

Lemma shares_point_tau ps A B : shares_point (map tau ps) (tau A) (tau B) <-> shares_point ps A B.
Proof.
  split; [|apply shares_point_tau_1]. intros H. apply shares_point_tau_1 in H.
  rewrite map_tau_tau, !tau_tau in H. exact H.
Qed.

Theorem ring_intersects_segment_tau (ps : list pt) (A B : pt) :
  ring_intersects_segment (RS {| closed := true; pts := map tau ps |}) (tau A, tau B) true =
  ring_intersects_segment (RS {| closed := true; pts := ps |}) (A, B) true.
Proof. apply bool_eq_iff. rewrite !ring_intersects_segment_pointset. apply shares_point_tau. Qed.

Theorem ring_intersects_line_tau (ps qs : list pt) :
  ring_intersects_line (RS {| closed := true; pts := map tau ps |}) (RS {| closed := false; pts := map tau qs |}) true =
  ring_intersects_line (RS {| closed := true; pts := ps |}) (RS {| closed := false; pts := qs |}) true.
Proof.
  apply bool_eq_iff. rewrite !ring_intersects_line_pointset, !map_length, (path_segs_tau tau). split.
  - intros (H1 & H2 & sg & Hin & Hs). split; [exact H1|]. split; [exact H2|].
    apply in_map_iff in Hin. destruct Hin as ([a b] & <- & Hin). exists (a, b). split; [exact Hin|].
    cbn [taus fst snd] in Hs. apply (proj1 (shares_point_tau ps a b)) in Hs. exact Hs.
  - intros (H1 & H2 & [a b] & Hin & Hs). split; [exact H1|]. split; [exact H2|].
    exists (taus tau (a, b)). split; [apply in_map; exact Hin|]. cbn [taus fst snd]. apply (proj2 (shares_point_tau ps a b)). exact Hs.
Qed.

Lemma rings_share_point_tau_1 ps qs : rings_share_point ps qs -> rings_share_point (map tau ps) (map tau qs).
Proof.
  intros (k & P & Hk & H1 & H2). exists k, (tau P). split; [exact Hk|]. unfold edges_at in *.
  rewrite !map_sc_tau, !tau_in. split; assumption.
Qed.

Lemma rings_share_point_tau ps qs : rings_share_point (map tau ps) (map tau qs) <-> rings_share_point ps qs.
Proof.
  split; [|apply rings_share_point_tau_1]. intros H. apply rings_share_point_tau_1 in H.
  rewrite !map_tau_tau in H. exact H.
Qed.

Theorem ring_intersects_ring_tau (ps qs : list pt) :
  ring_intersects_ring (RS {| closed := true; pts := map tau ps |}) (RS {| closed := true; pts := map tau qs |}) true =
  ring_intersects_ring (RS {| closed := true; pts := ps |}) (RS {| closed := true; pts := qs |}) true.
Proof.
  apply bool_eq_iff. rewrite !ring_intersects_ring_pointset, !map_length, rings_share_point_tau. tauto.
Qed.

Theorem poly_intersects_poly_noholes_tau (e1 e2 : list pt) :
  poly_intersects_poly (Pg (map tau e1) []) (Pg (map tau e2) []) = poly_intersects_poly (Pg e1 []) (Pg e2 []).
Proof.
  apply bool_eq_iff. rewrite !poly_intersects_poly_noholes, !map_length, rings_share_point_tau. tauto.
Qed.

(* ringContainsPoint at the image point, with either treatment of the boundary *)
Theorem ring_contains_point_tau (ps : list pt) (p : pt) (allow : bool) :
  rcp_hit (RS {| closed := true; pts := map tau ps |}) (tau p) allow = rcp_hit (RS {| closed := true; pts := ps |}) p allow.
Proof.
  rewrite !ring_contains_point_spec. pose proof (tau_in ps p) as H. unfold in_ringb in H.
  rewrite (ring_edges_tau tau (pt_eqb_invol tau tau_tau)), (on_boundaryb_tau tau tau_on) in *.
  destruct (on_boundaryb (ring_edges ps) p); [reflexivity|exact H].
Qed.

Theorem poly_contains_point_tau (e : list pt) (hs : list (list pt)) (p : pt) :
  poly_contains_point (Pg (map tau e) (map (map tau) hs)) (tau p) = poly_contains_point (Pg e hs) p.
Proof.
  rewrite !poly_intersects_point_spec. apply (in_polyb_rings (map tau)); [apply tau_in|]. intros h _.
  apply (strictly_in_tau tau (pt_eqb_invol tau tau_tau) tau_on), tau_in.
Qed.
End Transfer.

Lemma sc_my k p : sc k (my p) = my (sc k p).
Proof. destruct p as [x y]. unfold sc, aff, my, px, py. cbn [fst snd]. f_equal; ring. Qed.
Lemma sc_tr k p : sc k (tr p) = tr (sc k p).
Proof. destruct p as [x y]. reflexivity. Qed.

Definition ring_intersects_segment_my := ring_intersects_segment_tau my my_my sc_my on_segb_my in_ringb_my.
Definition ring_intersects_line_my := ring_intersects_line_tau my my_my sc_my on_segb_my in_ringb_my.
Definition ring_intersects_ring_my := ring_intersects_ring_tau my my_my sc_my in_ringb_my.
Definition poly_intersects_poly_noholes_my := poly_intersects_poly_noholes_tau my my_my sc_my in_ringb_my.
Definition poly_contains_point_my := poly_contains_point_tau my my_my on_segb_my in_ringb_my.

Definition ring_intersects_segment_tr := ring_intersects_segment_tau tr tr_tr sc_tr on_segb_tr in_ringb_tr.
Definition ring_intersects_line_tr := ring_intersects_line_tau tr tr_tr sc_tr on_segb_tr in_ringb_tr.
Definition ring_intersects_ring_tr := ring_intersects_ring_tau tr tr_tr sc_tr in_ringb_tr.
Definition poly_intersects_poly_noholes_tr := poly_intersects_poly_noholes_tau tr tr_tr sc_tr in_ringb_tr.
Definition poly_contains_point_tr := poly_contains_point_tau tr tr_tr on_segb_tr in_ringb_tr.

Print Assumptions ring_intersects_ring_my.
Print Assumptions ring_intersects_ring_tr.
Print Assumptions poly_contains_point_tr.
