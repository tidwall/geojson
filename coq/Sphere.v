(* Sphere.v — real-valued model of geo/geo.go (haversine, distances, distance
   normalisation, the latitude part of RectFromCenter) and of the Circle tests of
   circle.go, with the theorems of properties C13, C14, C15 that hold of these
   formulas over the reals.  Go's float64 rounding is not modelled here: each
   run ties the formulas to the code by certified interval enclosures of the
   model at the generated inputs (tools/geo_goals.py). *)
From Coq Require Import Reals Lra.
Open Scope R_scope.

Definition Rearth : R := 6371000.
Definition rad (d : R) : R := d * (PI / 180).

(* geo.Haversine *)
Definition hav (latA lonA latB lonB : R) : R :=
  let p1 := rad latA in let l1 := rad lonA in
  let p2 := rad latB in let l2 := rad lonB in
  let s1 := sin ((p2 - p1) / 2) in
  let s2 := sin ((l2 - l1) / 2) in
  s1 * s1 + cos p1 * cos p2 * (s2 * s2).

(* geo.DistanceToHaversine / DistanceFromHaversine / DistanceTo *)
Definition dist_to_hav (m : R) : R := let s := sin ((1 / 2) * m / Rearth) in s * s.
(* the square root is clamped to 1 (geo.go, since the repair a5ec9f5: the float haversine of an antipodal
   pair can round to just above 1) *)
Definition dist_from_hav (h : R) : R := Rearth * 2 * asin (Rmin 1 (sqrt h)).
Definition distance_to (latA lonA latB lonB : R) : R := dist_from_hav (hav latA lonA latB lonB).

Definition piR : R := PI * Rearth.

Lemma Rearth_pos : 0 < Rearth.
Proof. unfold Rearth. lra. Qed.

(* C15: symmetry, zero, range *)

Theorem hav_sym a b c d : hav a b c d = hav c d a b.
Proof.
  unfold hav. cbv zeta.
  replace ((rad a - rad c) / 2) with (- ((rad c - rad a) / 2)) by lra.
  replace ((rad b - rad d) / 2) with (- ((rad d - rad b) / 2)) by lra.
  rewrite !sin_neg. ring.
Qed.

Theorem hav_refl a b : hav a b a b = 0.
Proof.
  unfold hav. cbv zeta.
  replace ((rad a - rad a) / 2) with 0 by lra. replace ((rad b - rad b) / 2) with 0 by lra.
  rewrite sin_0. ring.
Qed.

Definition lat_ok (d : R) : Prop := -90 <= d <= 90.

Lemma rad_lat_bounds d : lat_ok d -> - (PI / 2) <= rad d <= PI / 2.
Proof. unfold lat_ok, rad. pose proof PI_RGT_0. intros [H1 H2]. split; nra. Qed.

Lemma cos_lat_nonneg d : lat_ok d -> 0 <= cos (rad d).
Proof. intros H. apply cos_ge_0; apply rad_lat_bounds in H; lra. Qed.

(* the longitude term is never negative: the latitude term alone bounds the haversine from below *)
Lemma hav_ge_lat a b c d : lat_ok a -> lat_ok c ->
  sin ((rad c - rad a) / 2) * sin ((rad c - rad a) / 2) <= hav a b c d.
Proof.
  intros Ha Hc. unfold hav. cbv zeta.
  pose proof (Rmult_le_pos _ _ (cos_lat_nonneg a Ha) (cos_lat_nonneg c Hc)) as P.
  pose proof (Rmult_le_pos _ _ P (Rle_0_sqr (sin ((rad d - rad b) / 2)))) as Q. unfold Rsqr in Q. lra.
Qed.

Theorem hav_nonneg a b c d : lat_ok a -> lat_ok c -> 0 <= hav a b c d.
Proof. intros Ha Hc. apply Rle_trans with (2 := hav_ge_lat a b c d Ha Hc). apply Rle_0_sqr. Qed.

(* hav = (1 - cos of the central angle) / 2, hence at most 1 *)
Lemma sin_half_sqr x : sin (x / 2) * sin (x / 2) = (1 - cos x) / 2.
Proof.
  replace x with (2 * (x / 2)) at 3 by lra. rewrite cos_2a_sin. lra.
Qed.

Theorem hav_le_1 a b c d : lat_ok a -> lat_ok c -> hav a b c d <= 1.
Proof.
  intros Ha Hc. unfold hav. cbv zeta.
  pose proof (cos_lat_nonneg a Ha) as C1. pose proof (cos_lat_nonneg c Hc) as C2.
  rewrite !sin_half_sqr. rewrite cos_minus.
  pose proof (COS_bound (rad d - rad b)) as [B1 B2].
  pose proof (COS_bound (rad c + rad a)) as [B3 B4]. rewrite cos_plus in B3, B4.
  assert (P : 0 <= cos (rad a) * cos (rad c)) by (apply Rmult_le_pos; assumption).
  assert (Q : 0 <= cos (rad a) * cos (rad c) * (1 + cos (rad d - rad b))) by (apply Rmult_le_pos; lra).
  lra.
Qed.

Lemma hav_range a b c d : lat_ok a -> lat_ok c -> 0 <= hav a b c d <= 1.
Proof. intros Ha Hc. split; [apply hav_nonneg|apply hav_le_1]; assumption. Qed.

(* C15: haversine <-> metres *)

Lemma half_angle_bounds m : 0 <= m <= piR -> 0 <= (1 / 2) * m / Rearth <= PI / 2.
Proof. unfold piR, Rearth. pose proof PI_RGT_0. intros [H1 H2]. split; lra. Qed.

Theorem dist_to_hav_increasing m1 m2 :
  0 <= m1 -> m1 < m2 -> m2 <= piR -> dist_to_hav m1 < dist_to_hav m2.
Proof.
  intros H0 Hlt Hmax. unfold dist_to_hav. cbv zeta.
  pose proof (half_angle_bounds m1 ltac:(lra)) as [A1 A2].
  pose proof (half_angle_bounds m2 ltac:(lra)) as [B1 B2].
  assert (Hx : (1 / 2) * m1 / Rearth < (1 / 2) * m2 / Rearth).
  { pose proof Rearth_pos. unfold Rdiv. apply Rmult_lt_compat_r; [apply Rinv_0_lt_compat; lra|lra]. }
  pose proof PI_RGT_0.
  assert (S : sin ((1 / 2) * m1 / Rearth) < sin ((1 / 2) * m2 / Rearth)) by (apply sin_increasing_1; lra).
  assert (S0 : 0 <= sin ((1 / 2) * m1 / Rearth)) by (apply sin_ge_0; lra).
  clear - S S0. nra.
Qed.

Lemma dist_to_hav_le_iff m1 m2 :
  0 <= m1 <= piR -> 0 <= m2 <= piR -> (dist_to_hav m1 <= dist_to_hav m2 <-> m1 <= m2).
Proof.
  intros H1 H2. split.
  - intros H. destruct (Rle_or_lt m1 m2) as [L|G]; [exact L|].
    pose proof (dist_to_hav_increasing m2 m1 ltac:(lra) G ltac:(lra)). lra.
  - intros [L| ->]; [left; apply dist_to_hav_increasing; lra|right; reflexivity].
Qed.

Theorem dist_to_hav_range m : 0 <= m <= piR -> 0 <= dist_to_hav m <= 1.
Proof.
  intros _. unfold dist_to_hav. cbv zeta. pose proof (SIN_bound ((1 / 2) * m / Rearth)) as [S1 S2]. split; nra.
Qed.

(* metres -> haversine -> metres without loss *)
Theorem dist_hav_inverse m : 0 <= m <= piR -> dist_from_hav (dist_to_hav m) = m.
Proof.
  intros H. unfold dist_from_hav, dist_to_hav. cbv zeta.
  pose proof (half_angle_bounds m H) as [A1 A2]. pose proof PI_RGT_0.
  assert (S0 : 0 <= sin ((1 / 2) * m / Rearth)) by (apply sin_ge_0; lra).
  rewrite sqrt_square by exact S0. rewrite Rmin_right by (pose proof (SIN_bound ((1 / 2) * m / Rearth)); lra). rewrite asin_sin by lra.
  unfold Rearth. lra.
Qed.

Lemma asin_nonneg x : 0 <= x <= 1 -> 0 <= asin x.
Proof.
  intros Hx. pose proof PI_RGT_0. pose proof (asin_bound x).
  apply sin_incr_0; try lra. rewrite sin_0, sin_asin; lra.
Qed.

(* for a haversine in [0, 1] the clamp is idle and the angle DistanceFromHaversine doubles is half the
   central angle: it lies in [0, PI/2] and the square of its sine is h *)
Lemma half_central_angle h : 0 <= h <= 1 ->
  0 <= asin (Rmin 1 (sqrt h)) <= PI / 2 /\ sin (asin (Rmin 1 (sqrt h))) * sin (asin (Rmin 1 (sqrt h))) = h.
Proof.
  intros [H0 H1].
  assert (Hs : 0 <= sqrt h <= 1).
  { split; [apply sqrt_pos|]. rewrite <- sqrt_1. apply sqrt_le_1_alt. exact H1. }
  rewrite Rmin_right by lra. split.
  - split; [apply asin_nonneg; exact Hs|apply asin_bound].
  - rewrite sin_asin by lra. apply sqrt_sqrt. exact H0.
Qed.

(* haversine -> metres -> haversine without loss *)
Theorem hav_dist_inverse h : 0 <= h <= 1 -> dist_to_hav (dist_from_hav h) = h.
Proof.
  intros H. destruct (half_central_angle h H) as [_ E]. unfold dist_from_hav, dist_to_hav. cbv zeta.
  replace ((1 / 2) * (Rearth * 2 * asin (Rmin 1 (sqrt h))) / Rearth) with (asin (Rmin 1 (sqrt h))) by (unfold Rearth; lra).
  exact E.
Qed.

Theorem distance_range a b c d : lat_ok a -> lat_ok c -> 0 <= distance_to a b c d <= piR.
Proof.
  intros Ha Hc. unfold distance_to, dist_from_hav, piR.
  destruct (half_central_angle _ (hav_range a b c d Ha Hc)) as [B _].
  pose proof Rearth_pos. split; nra.
Qed.

(* whatever the haversine rounds to, the metres never exceed half the circumference *)
Theorem dist_from_hav_le_piR h : dist_from_hav h <= piR.
Proof.
  unfold dist_from_hav, piR. pose proof (asin_bound (Rmin 1 (sqrt h))) as [_ B]. pose proof Rearth_pos. nra.
Qed.

Theorem distance_sym a b c d : distance_to a b c d = distance_to c d a b.
Proof. unfold distance_to. rewrite hav_sym. reflexivity. Qed.

Theorem distance_refl a b : distance_to a b a b = 0.
Proof. unfold distance_to, dist_from_hav. rewrite hav_refl, sqrt_0, Rmin_right, asin_0 by lra. ring. Qed.

(* C15: distance normalisation (math.Mod by the full circumference) *)

Lemma cos_period_Z x (k : Z) : cos (x + 2 * IZR k * PI) = cos x.
Proof.
  destruct k as [|p|p].
  - f_equal. ring.
  - rewrite <- (positive_nat_Z p), <- INR_IZR_INZ. apply cos_period.
  - rewrite <- (cos_period (x + 2 * IZR (Z.neg p) * PI) (Pos.to_nat p)).
    rewrite INR_IZR_INZ, positive_nat_Z. f_equal. change (Z.neg p) with (- Z.pos p)%Z. rewrite opp_IZR. ring.
Qed.

(* sin^2 has period PI: it is (1 - cos of the double angle) / 2 *)
Lemma sin_sqr_period x (k : Z) : sin (x + IZR k * PI) * sin (x + IZR k * PI) = sin x * sin x.
Proof.
  replace (x + IZR k * PI) with ((2 * x + 2 * IZR k * PI) / 2) by lra.
  rewrite sin_half_sqr, cos_period_Z, <- sin_half_sqr. do 2 f_equal; lra.
Qed.

(* NormalizeDistance(m) = m - k * (2 PI R) for the integer k that math.Mod picks *)
Definition normalize (m : R) (k : Z) : R := m - IZR k * (2 * piR).

Theorem normalize_keeps_hav m k : dist_to_hav (normalize m k) = dist_to_hav m.
Proof.
  unfold dist_to_hav, normalize, piR. cbv zeta. pose proof Rearth_pos.
  replace ((1 / 2) * (m - IZR k * (2 * (PI * Rearth))) / Rearth) with ((1 / 2) * m / Rearth + IZR (- k) * PI)
    by (rewrite opp_IZR; unfold Rearth; lra).
  apply sin_sqr_period.
Qed.

(* with k = 0 nothing is removed; that 0 is the multiple math.Mod picks for a value already in [0, 2 PI R)
   is not part of the model, where k is free *)
Theorem normalize_idempotent m k : normalize (normalize m k) 0 = normalize m k.
Proof. unfold normalize. ring. Qed.

(* C13: Circle.containsPoint *)

(* circle.go:84-87 — with the stored haversine of the (normalised) radius *)
Definition circle_contains_point (clat clon meters plat plon : R) : Prop :=
  hav plat plon clat clon <= dist_to_hav meters.

(* ... is exactly "great-circle distance at most the radius", for radii up to half the circumference *)
Theorem circle_contains_point_spec clat clon meters plat plon :
  lat_ok clat -> lat_ok plat -> 0 <= meters <= piR ->
  (circle_contains_point clat clon meters plat plon <-> distance_to plat plon clat clon <= meters).
Proof.
  intros Hc Hp Hm. unfold circle_contains_point.
  rewrite <- (hav_dist_inverse (hav plat plon clat clon)) by (apply hav_range; assumption).
  apply dist_to_hav_le_iff; [apply distance_range; assumption|exact Hm].
Qed.

Theorem circle_monotone_radius clat clon m1 m2 plat plon :
  0 <= m1 <= m2 -> m2 <= piR ->
  circle_contains_point clat clon m1 plat plon -> circle_contains_point clat clon m2 plat plon.
Proof.
  unfold circle_contains_point. intros [H0 H12] Hmax H.
  apply Rle_trans with (1 := H). apply dist_to_hav_le_iff; lra.
Qed.

(* the point test does not depend on operand order (hav is symmetric) *)
Theorem circle_point_order clat clon meters plat plon :
  circle_contains_point clat clon meters plat plon <-> hav clat clon plat plon <= dist_to_hav meters.
Proof. unfold circle_contains_point. rewrite hav_sym. tauto. Qed.

(* C14: the latitude band of RectFromCenter covers the disc *)

(* sin is increasing on [-PI/2, PI/2], so there a bound on its square is a bound on the angle *)
Lemma sin_sqr_le x y : - (PI / 2) <= x <= PI / 2 -> 0 <= y <= PI / 2 ->
  sin x * sin x <= sin y * sin y -> Rabs x <= y.
Proof.
  intros Hx Hy H. pose proof PI_RGT_0. assert (S : 0 <= sin y) by (apply sin_ge_0; lra).
  apply Rabs_le. split; apply sin_incr_0; try lra; rewrite ?sin_neg; nra.
Qed.

(* a location within angular distance r of the centre has |lat - lat0| <= r (r up to PI) *)
Theorem disc_latitude_band lat0 lon0 lat lon (r : R) :
  lat_ok lat0 -> lat_ok lat -> 0 <= r <= PI ->
  hav lat0 lon0 lat lon <= sin (r / 2) * sin (r / 2) ->
  Rabs (rad lat - rad lat0) <= r.
Proof.
  intros H0 H1 Hr Hh.
  pose proof (rad_lat_bounds lat0 H0) as B0. pose proof (rad_lat_bounds lat H1) as B1.
  assert (Habs : Rabs ((rad lat - rad lat0) / 2) <= r / 2).
  { apply sin_sqr_le; [lra|lra|]. apply Rle_trans with (2 := Hh). apply hav_ge_lat; assumption. }
  unfold Rdiv in Habs. rewrite Rabs_mult, (Rabs_right (/ 2)) in Habs by lra. lra.
Qed.

Print Assumptions hav_sym.
Print Assumptions hav_le_1.
Print Assumptions dist_hav_inverse.
Print Assumptions circle_contains_point_spec.
Print Assumptions normalize_keeps_hav.
Print Assumptions disc_latitude_band.
