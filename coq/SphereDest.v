(* SphereDest.v — property C15 over the reals: travelling a distance d along a
   bearing th from A (DestinationPoint, geo.go) yields a location whose distance
   back to A is d and for which the two arguments of BearingTo's atan2 are
   (sin th, cos th) * sin (d / R).

   The two Atan2 calls of the code enter through their defining property only
   (Go's math.Atan2 is outside the model): alpha = atan2 y x is an angle with
   cos alpha * sqrt (x^2+y^2) = x and sin alpha * sqrt (x^2+y^2) = y.
   For the latitude, atan2 s c with s^2 + c^2 = 1, c >= 0 is the angle in
   [-PI/2, PI/2] whose sine is s.  *)
From Coq Require Import Reals Lra.
From GJ Require Import Sphere SphereRect.
Open Scope R_scope.

(* with a, b / p, q / u, w the sine and cosine of the start latitude, of d / R and of the bearing, S = a p + b q u
   is the sine of the destination latitude and the two arguments of the longitude's atan2 are X = p - a S and
   Y = w q b.  X = b K with K = b p - a q u, and K^2 + S^2 = p^2 + q^2 u^2 (two-squares identity) = 1 - q^2 w^2 *)
Lemma dest_radius_sq (a b p q u w : R) : a * a + b * b = 1 -> q * q + p * p = 1 -> w * w + u * u = 1 ->
  (p - a * (a * p + b * q * u)) * (p - a * (a * p + b * q * u)) + w * q * b * (w * q * b) =
  b * b * (1 - (a * p + b * q * u) * (a * p + b * q * u)).
Proof.
  intros E1 E2 E3.
  replace (p - a * (a * p + b * q * u)) with (b * (b * p - a * q * u) + p * (1 - (a * a + b * b))) by ring.
  assert (T : (b * p - a * q * u) * (b * p - a * q * u) + (a * p + b * q * u) * (a * p + b * q * u)
              = (a * a + b * b) * (p * p + q * q * (u * u))) by ring.
  assert (F : 1 - (a * p + b * q * u) * (a * p + b * q * u) = (b * p - a * q * u) * (b * p - a * q * u) + w * w * (q * q)).
  { rewrite E1 in T. replace 1 with (q * q * (w * w + u * u) + p * p) by (rewrite E3; lra). lra. }
  rewrite F, E1. ring.
Qed.

Section Dest.
Variables latA lonA latB lonB d th : R.

Let del := d / Rearth.
Let p1 := rad latA.
(* sin of the destination latitude, and the two arguments of the longitude's atan2 (geo.go) *)
Let s := sin p1 * cos del + cos p1 * sin del * cos (rad th).
Let X := cos del - sin p1 * s.
Let Y := sin (rad th) * sin del * cos p1.

Hypothesis lat_sin : sin (rad latB) = s.
Hypothesis lat_cos : 0 <= cos (rad latB).
Hypothesis lon_cos : cos (rad lonB - rad lonA) * sqrt (X * X + Y * Y) = X.
Hypothesis lon_sin : sin (rad lonB - rad lonA) * sqrt (X * X + Y * Y) = Y.
Hypothesis start_off_pole : 0 < cos p1.

(* the radius of the longitude's atan2 is cos lat1 * cos lat2 *)
Lemma lon_radius : sqrt (X * X + Y * Y) = cos p1 * cos (rad latB).
Proof.
  pose proof (sqr_sin_cos (rad latB)) as E4. rewrite lat_sin in E4.
  unfold X, Y, s. rewrite (dest_radius_sq _ _ _ _ _ _ (sqr_sin_cos p1) (sqr_sin_cos del) (sqr_sin_cos (rad th))). fold s.
  replace (cos p1 * cos p1 * (1 - s * s)) with ((cos p1 * cos (rad latB)) * (cos p1 * cos (rad latB)))
    by (replace (1 - s * s) with (cos (rad latB) * cos (rad latB)) by lra; ring).
  apply sqrt_square. apply Rmult_le_pos; lra.
Qed.

(* the cosine of the central angle between A and the destination is cos (d / R) *)
Lemma central_angle : sin p1 * sin (rad latB) + cos p1 * cos (rad latB) * cos (rad lonB - rad lonA) = cos del.
Proof.
  pose proof lon_cos as H. rewrite lon_radius in H. rewrite lat_sin.
  replace (cos p1 * cos (rad latB) * cos (rad lonB - rad lonA)) with (cos (rad lonB - rad lonA) * (cos p1 * cos (rad latB))) by ring.
  rewrite H. unfold X. ring.
Qed.

(* the haversine of (A, destination) is the haversine of the distance travelled *)
Theorem destination_haversine : hav latA lonA latB lonB = dist_to_hav d.
Proof.
  rewrite hav_cos. fold p1. rewrite central_angle. unfold dist_to_hav. cbv zeta.
  replace (1 / 2 * d / Rearth) with (del / 2) by (unfold del, Rearth; lra).
  rewrite sin_half_sqr. reflexivity.
Qed.

Theorem destination_distance_back : 0 <= d <= piR -> distance_to latA lonA latB lonB = d.
Proof. intros Hd. unfold distance_to. rewrite destination_haversine. apply dist_hav_inverse. exact Hd. Qed.

(* the two arguments of BearingTo's atan2 are sin th * sin del and cos th * sin del.  That the atan2 of this
   pair is th (for 0 < sin del, i.e. 0 < d < PI R, and th in atan2's range) is left out: Atan2 is outside the model *)
Theorem destination_bearing_back :
  sin (rad lonB - rad lonA) * cos (rad latB) = sin (rad th) * sin del /\
  cos p1 * sin (rad latB) - sin p1 * cos (rad latB) * cos (rad lonB - rad lonA) = cos (rad th) * sin del.
Proof.
  pose proof lon_cos as Hc. pose proof lon_sin as Hs. rewrite lon_radius in Hc, Hs.
  pose proof (sqr_sin_cos p1) as E1.
  split.
  - apply Rmult_eq_reg_l with (cos p1); [|lra].
    replace (cos p1 * (sin (rad lonB - rad lonA) * cos (rad latB))) with (sin (rad lonB - rad lonA) * (cos p1 * cos (rad latB))) by ring.
    rewrite Hs. unfold Y. ring.
  - apply Rmult_eq_reg_l with (cos p1); [|lra].
    replace (cos p1 * (cos p1 * sin (rad latB) - sin p1 * cos (rad latB) * cos (rad lonB - rad lonA)))
      with (cos p1 * cos p1 * sin (rad latB) - sin p1 * (cos (rad lonB - rad lonA) * (cos p1 * cos (rad latB)))) by ring.
    rewrite Hc, lat_sin. unfold X.
    replace (cos p1 * cos p1 * s - sin p1 * (cos del - sin p1 * s)) with ((sin p1 * sin p1 + cos p1 * cos p1) * s - sin p1 * cos del) by ring.
    rewrite E1. unfold s. ring.
Qed.

End Dest.

Print Assumptions destination_distance_back.
Print Assumptions destination_bearing_back.
