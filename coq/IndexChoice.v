(* IndexChoice.v — property C04: ringContainsSegment consumes the index of the ring segment on which an
   end of the probe segment was found.  When an end lies on two ring segments (a shared vertex) the
   index reported depends on the order in which the segment index (none / quadtree / R-tree) delivers
   its candidates.  For a ring whose segments meet only at their ends the answer does not depend on
   that choice: this closes the gap between "a search reports the same SET of segments" (C04's exact
   accelerator theorems) and "the predicates answer alike". *)
From GJ Require Import Base Kernel KernelSpec Series Ring RingSpec KernelProofs PipProofs.
Open Scope Z_scope.

(* ringContainsSegment with the two point-search results as parameters (same text as Ring.ring_contains_segment) *)
Definition rcs_with (r : rng) (sg : seg) (allow : bool) (resA resB : bool * Z) : bool * Z :=
  let '(a, b) := sg in
  let rr := ring_rect r in
  if negb (rect_contains_point rr a) || negb (rect_contains_point rr b) then (false, 1)
  else
  if negb (fst resA) then (false, 2)
  else if pt_eqb b a then (true, 3)
  else
  if negb (fst resB) then (false, 4)
  else if ring_convex r then (true, 5)
  else
  let cands := ring_search r (seg_rect sg) in
  let hit (f : seg -> bool) := existsb (fun si => intersects_segment sg (fst si) && f (fst si)) cands in
  if allow then
    if negb (snd resA =? -1) then
      if negb (snd resB =? -1) then
        if snd resB =? snd resA then (true, 6)
        else
          let rsa := nth_seg r (snd resA) in
          let rsb := nth_seg r (snd resB) in
          if pt_eqb (fst rsa) a || pt_eqb (snd rsa) a || pt_eqb (fst rsb) a || pt_eqb (snd rsb) a ||
             pt_eqb (fst rsa) b || pt_eqb (snd rsa) b || pt_eqb (fst rsb) b || pt_eqb (snd rsb) b
          then (true, 7)
          else
            let '(rsa', rsb') := if snd resB <? snd resA then (rsb, rsa) else (rsa, rsb) in
            if negb (Bool.eqb (quad_cw rsa' rsb') (ring_clockwise r)) then (false, 8)
            else (negb (hit (fun s2 => negb (raycast_on s2 a) && negb (raycast_on s2 b))), 9)
      else (negb (hit (fun s2 => negb (raycast_on s2 a))), 10)
    else if negb (snd resB =? -1) then (negb (hit (fun s2 => negb (raycast_on s2 b))), 11)
    else (negb (hit (fun s2 => negb (raycast_on sg (fst s2)) && negb (raycast_on sg (snd s2)))), 12)
  else (negb (hit (fun _ => true)), 13).

Lemma rcs_with_model (r : rng) (sg : seg) (allow : bool) :
  ring_contains_segment r sg allow =
  rcs_with r sg allow (ring_contains_point r (fst sg) allow) (ring_contains_point r (snd sg) allow).
Proof. destruct sg as [a b]. reflexivity. Qed.

(* what any correct point search may report for p: the hit flag of the model, and for a boundary point
   the index of SOME ring segment through p *)
Definition valid_res (r : rng) (p : pt) (allow : bool) (res : bool * Z) : Prop :=
  fst res = fst (ring_contains_point r p allow) /\
  (on_boundaryb (ring_segments r) p = false -> snd res = -1) /\
  (on_boundaryb (ring_segments r) p = true ->
     exists i, snd res = Z.of_nat i /\ In (nth_seg r (Z.of_nat i)) (ring_segments r) /\ on_seg (nth_seg r (Z.of_nat i)) p).

(* ring segments meet only at their ends: a point on two segments of different index is an end of both *)
Definition meets_at_ends (r : rng) : Prop :=
  forall (i j : nat) (p : pt), i <> j -> on_seg (nth_seg r (Z.of_nat i)) p -> on_seg (nth_seg r (Z.of_nat j)) p ->
    (p = fst (nth_seg r (Z.of_nat i)) \/ p = snd (nth_seg r (Z.of_nat i))) /\
    (p = fst (nth_seg r (Z.of_nat j)) \/ p = snd (nth_seg r (Z.of_nat j))).

Lemma endpoint_eqb (s : seg) (p : pt) : p = fst s \/ p = snd s -> pt_eqb (fst s) p || pt_eqb (snd s) p = true.
Proof. intros [-> | ->]; rewrite pt_eqb_refl; [reflexivity|apply orb_true_r]. Qed.

Lemma of_nat_not_m1 (i : nat) : (Z.of_nat i =? -1) = false.
Proof. apply Z.eqb_neq. lia. Qed.

(* sites 6 and 7 of rcs_with answer true as soon as a is an end of the segment
   reported for a, or b an end of the one reported for b *)
Lemma sites_6_7 (same a1 a2 a3 a4 b1 b2 b3 b4 : bool) (rest : bool * Z) :
  a1 || a2 = true \/ b3 || b4 = true ->
  fst (if same then (true, 6)
       else if a1 || a2 || a3 || a4 || b1 || b2 || b3 || b4 then (true, 7) else rest) = true.
Proof.
  intros H. destruct same; [reflexivity|].
  destruct H as [H|H]; apply orb_true_iff in H; destruct H as [-> | ->];
    rewrite ?orb_true_r; reflexivity.
Qed.

(* The shape of rcs_with as far as the two reported indices decide the way:
   five early exits that do not look at them, then the split on "is -1".  [t]
   stands for sites 6-9, which alone look at the indices themselves. *)
Lemma choice_shape (x1 x2 x3 x4 x5 : bool) (e1 e2 e3 e4 e5 s10 s11 s12 t t' : bool * Z)
  (ia ib ia' ib' : Z) :
  (ia =? -1) = (ia' =? -1) -> (ib =? -1) = (ib' =? -1) ->
  (ia <> -1 -> ib <> -1 -> fst t = fst t') ->
  fst (if x1 then e1 else if x2 then e2 else if x3 then e3 else if x4 then e4 else if x5 then e5 else
       if negb (ia =? -1) then if negb (ib =? -1) then t else s10
       else if negb (ib =? -1) then s11 else s12) =
  fst (if x1 then e1 else if x2 then e2 else if x3 then e3 else if x4 then e4 else if x5 then e5 else
       if negb (ia' =? -1) then if negb (ib' =? -1) then t' else s10
       else if negb (ib' =? -1) then s11 else s12).
Proof.
  intros Ea Eb H. rewrite <- Ea, <- Eb. destruct x1, x2, x3, x4, x5; try reflexivity.
  destruct (Z.eqb_spec ia (-1)), (Z.eqb_spec ib (-1)); cbn [negb]; auto.
Qed.

(* two valid reports for p agree on whether there is an index; if there is one,
   it is that of a ring segment through p *)
Lemma valid_m1 (r : rng) (p : pt) (res res' : bool * Z) :
  valid_res r p true res -> valid_res r p true res' -> (snd res =? -1) = (snd res' =? -1).
Proof.
  intros (_ & N & B) (_ & N' & B'). destruct (on_boundaryb (ring_segments r) p).
  - destruct (B eq_refl) as (i & -> & _), (B' eq_refl) as (i' & -> & _).
    rewrite !of_nat_not_m1. reflexivity.
  - rewrite (N eq_refl), (N' eq_refl). reflexivity.
Qed.

Lemma valid_index (r : rng) (p : pt) (res : bool * Z) :
  valid_res r p true res -> snd res <> -1 ->
  exists i, snd res = Z.of_nat i /\ on_seg (nth_seg r (Z.of_nat i)) p.
Proof.
  intros (_ & N & B) H. destruct (on_boundaryb (ring_segments r) p).
  - destruct (B eq_refl) as (i & E & _ & Hon). exists i. auto.
  - elim H. auto.
Qed.

(* with contact allowed, any two valid reports give the same answer *)
Theorem rcs_choice_independent (r : rng) (a b : pt) (resA resA' resB resB' : bool * Z) :
  meets_at_ends r ->
  valid_res r a true resA -> valid_res r a true resA' -> valid_res r b true resB -> valid_res r b true resB' ->
  fst (rcs_with r (a, b) true resA resB) = fst (rcs_with r (a, b) true resA' resB').
Proof.
  intros Hm VA VA' VB VB'.
  unfold rcs_with. cbv zeta iota.
  rewrite (proj1 VA), (proj1 VA'), (proj1 VB), (proj1 VB').
  apply choice_shape; [exact (valid_m1 _ _ _ _ VA VA')|exact (valid_m1 _ _ _ _ VB VB')|].
  intros HA HB.
  assert (HA' : snd resA' <> -1)
    by (apply Z.eqb_neq; rewrite <- (valid_m1 _ _ _ _ VA VA'); apply Z.eqb_neq, HA).
  assert (HB' : snd resB' <> -1)
    by (apply Z.eqb_neq; rewrite <- (valid_m1 _ _ _ _ VB VB'); apply Z.eqb_neq, HB).
  destruct (valid_index _ _ _ VA HA) as (ia & -> & Ha), (valid_index _ _ _ VA' HA') as (ia' & -> & Ha').
  destruct (valid_index _ _ _ VB HB) as (ib & -> & Hb), (valid_index _ _ _ VB' HB') as (ib' & -> & Hb').
  (* if an end has two different reports it is an end of both reported segments *)
  destruct (Nat.eq_dec ia ia') as [Eia|Nia]; [subst ia'|].
  - destruct (Nat.eq_dec ib ib') as [Eib|Nib]; [subst ib'; reflexivity|].
    destruct (Hm ib ib' b Nib Hb Hb') as [Eb1 Eb2].
    rewrite (sites_6_7 _ _ _ _ _ _ _ _ _ _ (or_intror (endpoint_eqb _ b Eb1))),
      (sites_6_7 _ _ _ _ _ _ _ _ _ _ (or_intror (endpoint_eqb _ b Eb2))). reflexivity.
  - destruct (Hm ia ia' a Nia Ha Ha') as [Ea1 Ea2].
    rewrite (sites_6_7 _ _ _ _ _ _ _ _ _ _ (or_introl (endpoint_eqb _ a Ea1))),
      (sites_6_7 _ _ _ _ _ _ _ _ _ _ (or_introl (endpoint_eqb _ a Ea2))). reflexivity.
Qed.

(* without contact (the mode used against holes) the indices are not consulted at all *)
Theorem rcs_strict_ignores_indices (r : rng) (sg : seg) (resA resA' resB resB' : bool * Z) :
  fst resA = fst resA' -> fst resB = fst resB' ->
  fst (rcs_with r sg false resA resB) = fst (rcs_with r sg false resA' resB').
Proof.
  intros FA FB. destruct sg as [a b]. unfold rcs_with. rewrite FA, FB. reflexivity.
Qed.

(* candidates none of which passes through p leave the reported index at -1 *)
Lemma pip_fold_off (allow : bool) (p : pt) (l : list (seg * nat)) : forall inn,
  existsb (fun si => on_segb (fst si) p) l = false -> snd (pip_fold allow p l inn) = -1.
Proof.
  induction l as [|[sg i] l IH]; intros inn E; [reflexivity|].
  cbn [existsb fst] in E. apply orb_false_iff in E. destruct E as [E1 E2].
  cbn [pip_fold]. rewrite raycast_eq_spec, E1. apply IH. exact E2.
Qed.

(* off the boundary the model's own point search reports no index *)
Lemma rcp_off_boundary (r : rng) (p : pt) (allow : bool) :
  on_boundaryb (ring_segments r) p = false -> snd (ring_contains_point r p allow) = -1.
Proof.
  intros Hb. unfold ring_contains_point. destruct (negb (rect_contains_point (ring_rect r) p)); [reflexivity|].
  apply pip_fold_off. rewrite (proj1 (strip_search_sound r p)). exact Hb.
Qed.

(* not vacuous: the segments of a triangle meet only at their ends *)
Definition tri_seg (k : nat) : seg :=
  match k with
  | 0%nat => ((0,0),(4,0)) | 1%nat => ((4,0),(0,4)) | 2%nat => ((0,4),(0,0))
  | _ => ((0,0),(0,0))
  end.

Lemma tri_seg_eq k :
  nth_seg (RS {| closed := true; pts := [(0,0);(4,0);(0,4)] |}) (Z.of_nat k) = tri_seg k.
Proof. unfold nth_seg. rewrite Nat2Z.id. destruct k as [|[|[|[|k]]]]; reflexivity. Qed.

(* where the points of each side lie *)
Lemma on_tri k x y :
  on_seg (tri_seg k) (x, y) ->
  match k with
  | 0%nat => y = 0 /\ 0 <= x <= 4
  | 1%nat => x + y = 4 /\ 0 <= x <= 4
  | 2%nat => x = 0 /\ 0 <= y <= 4
  | _ => x = 0 /\ y = 0
  end.
Proof.
  destruct k as [|[|[|k]]]; unfold on_seg, cross, px, py; cbn [tri_seg fst snd]; lia.
Qed.

Lemma endpt (s : seg) x y :
  x = fst (fst s) /\ y = snd (fst s) \/ x = fst (snd s) /\ y = snd (snd s) ->
  (x, y) = fst s \/ (x, y) = snd s.
Proof. destruct s as [[a b] [c d]]. cbn [fst snd]. intros [[-> ->]|[-> ->]]; auto. Qed.

Example triangle_meets_at_ends : meets_at_ends (RS {| closed := true; pts := [(0,0);(4,0);(0,4)] |}).
Proof.
  intros i j [x y] Hij Hi Hj. rewrite !tri_seg_eq in *.
  apply on_tri in Hi. apply on_tri in Hj.
  split; apply endpt;
    destruct i as [|[|[|i]]], j as [|[|[|j]]]; cbn [tri_seg fst snd]; lia.
Qed.

Print Assumptions rcs_choice_independent.
