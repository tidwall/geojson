(* SphereTriangle.v — properties C13 / C15 over the reals: the great-circle
   distance of geo.go satisfies the triangle inequality, hence
   - Circle.Contains(Circle) (centre distance + radius of B <= radius of A) implies
     that every point of B is within A;
   - two circles that share a point have centre distance <= sum of the radii
     (the "only if" half of Circle.Intersects(Circle)). *)
From Coq Require Import Reals Lra.
From GJ Require Import Sphere SphereRect.
Open Scope R_scope.

(* three unit vectors: the Gram determinant is a square *)

Lemma gram (a1 a2 a3 b1 b2 b3 c1 c2 c3 : R) :
  a1 * a1 + a2 * a2 + a3 * a3 = 1 -> b1 * b1 + b2 * b2 + b3 * b3 = 1 -> c1 * c1 + c2 * c2 + c3 * c3 = 1 ->
  let x := a1 * b1 + a2 * b2 + a3 * b3 in
  let y := b1 * c1 + b2 * c2 + b3 * c3 in
  let z := a1 * c1 + a2 * c2 + a3 * c3 in
  (z - x * y) * (z - x * y) <= (1 - x * x) * (1 - y * y).
Proof.
  intros Na Nb Nc x y z.
  set (det := a1 * (b2 * c3 - b3 * c2) - a2 * (b1 * c3 - b3 * c1) + a3 * (b1 * c2 - b2 * c1)).
  assert (G : det * det =
              (a1 * a1 + a2 * a2 + a3 * a3) * (b1 * b1 + b2 * b2 + b3 * b3) * (c1 * c1 + c2 * c2 + c3 * c3)
              + 2 * x * y * z
              - (a1 * a1 + a2 * a2 + a3 * a3) * (y * y) - (b1 * b1 + b2 * b2 + b3 * b3) * (z * z)
              - (c1 * c1 + c2 * c2 + c3 * c3) * (x * x)) by (unfold det, x, y, z; ring).
  rewrite Na, Nb, Nc in G.
  assert (0 <= det * det) by (pose proof (Rle_0_sqr det) as S; unfold Rsqr in S; exact S).
  replace ((1 - x * x) * (1 - y * y)) with ((z - x * y) * (z - x * y) + (1 * 1 * 1 + 2 * x * y * z - 1 * (y * y) - 1 * (z * z) - 1 * (x * x))) by ring.
  lra.
Qed.

(* with x = cos al, y = cos be for angles in [0, PI]: z >= cos (al + be) *)
Lemma cos_sum_lower (al be z : R) : 0 <= al <= PI -> 0 <= be <= PI ->
  (z - cos al * cos be) * (z - cos al * cos be) <= (1 - cos al * cos al) * (1 - cos be * cos be) ->
  cos (al + be) <= z.
Proof.
  intros Ha Hb H. rewrite cos_plus.
  pose proof (sqr_sin_cos al) as Ea. pose proof (sqr_sin_cos be) as Eb.
  assert (Sa : 0 <= sin al) by (apply sin_ge_0; lra). assert (Sb : 0 <= sin be) by (apply sin_ge_0; lra).
  replace (1 - cos al * cos al) with (sin al * sin al) in H by lra.
  replace (1 - cos be * cos be) with (sin be * sin be) in H by lra.
  assert (P : 0 <= sin al * sin be) by (apply Rmult_le_pos; assumption).
  assert (D : cos al * cos be - z <= sin al * sin be) by (apply Rsqr_incr_0_var; [unfold Rsqr; lra|exact P]).
  lra.
Qed.

(* the central angle of a pair *)

Definition sdot (latA lonA latB lonB : R) : R :=
  sin (rad latA) * sin (rad latB) + cos (rad latA) * cos (rad latB) * cos (rad lonB - rad lonA).
Definition angle (latA lonA latB lonB : R) : R := distance_to latA lonA latB lonB / Rearth.

Lemma angle_range a b c d : lat_ok a -> lat_ok c -> 0 <= angle a b c d <= PI.
Proof.
  intros Ha Hc. unfold angle. pose proof (distance_range a b c d Ha Hc) as [D0 D1]. unfold piR in D1.
  pose proof Rearth_pos as HR. split.
  - apply Rle_mult_inv_pos; assumption.
  - apply Rmult_le_reg_r with Rearth; [exact HR|]. unfold Rdiv. rewrite Rmult_assoc, Rinv_l, Rmult_1_r by lra. exact D1.
Qed.

Lemma distance_angle a b c d : distance_to a b c d = angle a b c d * Rearth.
Proof. unfold angle, Rearth. lra. Qed.

(* the angle is twice the half central angle, whose squared sine is the haversine = (1 - sdot) / 2 *)
Lemma cos_angle a b c d : lat_ok a -> lat_ok c -> cos (angle a b c d) = sdot a b c d.
Proof.
  intros Ha Hc. destruct (half_central_angle _ (hav_range a b c d Ha Hc)) as [_ E].
  unfold angle, distance_to, dist_from_hav.
  replace (Rearth * 2 * asin (Rmin 1 (sqrt (hav a b c d))) / Rearth) with (2 * asin (Rmin 1 (sqrt (hav a b c d))))
    by (unfold Rearth; lra).
  rewrite cos_2a_sin, Rmult_assoc, E, hav_cos. unfold sdot. lra.
Qed.

(* the unit vector of a location *)
Lemma sdot_as_vectors a b c d :
  sdot a b c d =
  (cos (rad a) * cos (rad b)) * (cos (rad c) * cos (rad d)) + (cos (rad a) * sin (rad b)) * (cos (rad c) * sin (rad d))
  + sin (rad a) * sin (rad c).
Proof. unfold sdot. rewrite cos_minus. ring. Qed.

Lemma unit_vector a b :
  (cos (rad a) * cos (rad b)) * (cos (rad a) * cos (rad b)) + (cos (rad a) * sin (rad b)) * (cos (rad a) * sin (rad b))
  + sin (rad a) * sin (rad a) = 1.
Proof. pose proof (sqr_sin_cos (rad a)). pose proof (sqr_sin_cos (rad b)). nra. Qed.

Theorem distance_triangle (latA lonA latB lonB latC lonC : R) : lat_ok latA -> lat_ok latB -> lat_ok latC ->
  distance_to latA lonA latC lonC <= distance_to latA lonA latB lonB + distance_to latB lonB latC lonC.
Proof.
  intros Ha Hb Hc.
  pose proof (angle_range latA lonA latB lonB Ha Hb) as Rab. pose proof (angle_range latB lonB latC lonC Hb Hc) as Rbc.
  pose proof (angle_range latA lonA latC lonC Ha Hc) as Rac.
  assert (T : angle latA lonA latC lonC <= angle latA lonA latB lonB + angle latB lonB latC lonC).
  { destruct (Rle_or_lt PI (angle latA lonA latB lonB + angle latB lonB latC lonC)) as [Big|Small]; [lra|].
    (* below PI the cosine decreases: compare cosines, by the Gram determinant of the three unit vectors *)
    apply cos_decr_0; try lra. apply cos_sum_lower; [exact Rab|exact Rbc|].
    rewrite !cos_angle, !sdot_as_vectors by assumption. apply gram; apply unit_vector. }
  rewrite !distance_angle, <- Rmult_plus_distr_r. apply Rmult_le_compat_r; [left; exact Rearth_pos|exact T].
Qed.

Theorem circle_contains_circle_sound (latA lonA rA latB lonB rB plat plon : R) :
  lat_ok latA -> lat_ok latB -> lat_ok plat -> 0 <= rB <= piR -> 0 <= rA <= piR ->
  distance_to latA lonA latB lonB + rB <= rA ->
  circle_contains_point latB lonB rB plat plon -> circle_contains_point latA lonA rA plat plon.
Proof.
  intros Ha Hb Hp HrB HrA Hc Hin.
  apply (circle_contains_point_spec latB lonB rB plat plon Hb Hp HrB) in Hin.
  apply (circle_contains_point_spec latA lonA rA plat plon Ha Hp HrA).
  pose proof (distance_triangle plat plon latB lonB latA lonA Hp Hb Ha) as T.
  rewrite (distance_sym latB lonB latA lonA) in T. lra.
Qed.

Theorem circles_meet_only_if_close (latA lonA rA latB lonB rB plat plon : R) :
  lat_ok latA -> lat_ok latB -> lat_ok plat -> 0 <= rA <= piR -> 0 <= rB <= piR ->
  circle_contains_point latA lonA rA plat plon -> circle_contains_point latB lonB rB plat plon ->
  distance_to latA lonA latB lonB <= rA + rB.
Proof.
  intros Ha Hb Hp HrA HrB HA HB.
  apply (circle_contains_point_spec latA lonA rA plat plon Ha Hp HrA) in HA.
  apply (circle_contains_point_spec latB lonB rB plat plon Hb Hp HrB) in HB.
  pose proof (distance_triangle latA lonA plat plon latB lonB Ha Hp Hb) as T.
  rewrite (distance_sym latA lonA plat plon) in T. lra.
Qed.

Print Assumptions distance_triangle.
Print Assumptions circle_contains_circle_sound.
