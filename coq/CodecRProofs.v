(* CodecRProofs.v — "compressed segment indexes are exact accelerators",
   R-tree codec: searching the bytes produced by compressing an R-tree gives
   exactly the candidate list of the tree traversal, every read in bounds.
   Plus: the trees built by successive inserts are well shaped. *)
From GJ Require Import Base Index ByteCodec RTreeProofs.
From Coq Require Import Permutation.

Lemma firstn_app_exact {A} (n : nat) (l r : list A) :
  length l = n -> firstn n (l ++ r) = l.
Proof.
  intros <-. rewrite firstn_app, Nat.sub_diag, firstn_all, firstn_O, app_nil_r.
  reflexivity.
Qed.

Lemma skipn_app_exact {A} (l r : list A) : skipn (length l) (l ++ r) = r.
Proof.
  rewrite skipn_app, Nat.sub_diag, skipn_all. reflexivity.
Qed.

Lemma read_le_le_bytes k n pre post :
  0 <= n < 2 ^ (8 * Z.of_nat k) ->
  read_le (pre ++ le_bytes k n ++ post) (Z.of_nat (length pre)) k = Some n.
Proof. intros H. apply (le_step k _ _ n post H), at_addr_here. Qed.

(* [nbytes_ok] of ByteCodec under the name the statements here use *)
Definition ib_ok (ib : Z) : Prop := ib = 1 \/ ib = 2 \/ ib = 4.

Lemma read_num_enc_num n ib pre post :
  0 <= n < 2 ^ 32 -> ib_ok ib -> num_bytes n <= ib ->
  read_num (pre ++ enc_num n ib ++ post) (Z.of_nat (length pre)) ib = Some n.
Proof.
  intros Hn Hib Hle. apply (num_step _ _ n ib post Hib); [|apply at_addr_here].
  split; [lia|apply fits_le; assumption].
Qed.

Section CodecR.
Variable rect_of : Z -> rect.
Variable fenc : Z -> list Z.
Variable fdec : list Z -> option Z.
Hypothesis fenc_len : forall x, length (fenc x) = 8%nat.
Hypothesis fdec_fenc : forall x, fdec (fenc x) = Some x.

Lemma read_f_step data a x rest :
  at_addr data a (fenc x ++ rest) ->
  read_f fdec data a = Some x /\ at_addr data (a + 8) rest.
Proof.
  intros H. split; [|apply (at_skip _ _ _ _ 8 (f_equal Z.of_nat (fenc_len x)) H)].
  destruct H as (pre & post & -> & ->). unfold read_f.
  destruct (Z.ltb_spec (Z.of_nat (length pre)) 0) as [H|H]; [lia|].
  rewrite Nat2Z.id, skipn_app_exact, <- app_assoc, firstn_app_exact by apply fenc_len.
  apply fdec_fenc.
Qed.

Lemma read_f_fenc x pre post :
  read_f fdec (pre ++ fenc x ++ post) (Z.of_nat (length pre)) = Some x.
Proof. apply (read_f_step _ _ x post), at_addr_here. Qed.

Lemma enc_box_length b : length (enc_box fenc b) = 32%nat.
Proof.
  destruct b as [[nx ny] [xx xy]]. unfold enc_box.
  rewrite !app_length, !fenc_len. reflexivity.
Qed.

Lemma enc_box_at data a nx ny xx xy rest :
  at_addr data a (enc_box fenc ((nx, ny), (xx, xy)) ++ rest) ->
  read_f fdec data a = Some nx /\ read_f fdec data (a + 8) = Some ny /\
  read_f fdec data (a + 16) = Some xx /\ read_f fdec data (a + 24) = Some xy /\
  at_addr data (a + 32) rest.
Proof.
  unfold enc_box. rewrite <- !app_assoc. intros H.
  destruct (read_f_step _ _ _ _ H) as [H1 H']. clear H.
  destruct (read_f_step _ _ _ _ H') as [H2 H]. clear H'.
  destruct (read_f_step _ _ _ _ H) as [H3 H']. clear H.
  destruct (read_f_step _ _ _ _ H') as [H4 H]. clear H'.
  replace (a + 8 + 8) with (a + 16) in * by lia. replace (a + 16 + 8) with (a + 24) in * by lia.
  replace (a + 24 + 8) with (a + 32) in * by lia. auto.
Qed.

Definition rleafkid (c : rnode) : Prop :=
  match c with RItem _ it => 0 <= it < 2 ^ 32 | RNode _ _ => False end.

Fixpoint rshape (h : nat) (n : rnode) {struct h} : Prop :=
  match n with
  | RItem _ _ => False
  | RNode _ kids =>
      (length kids <= 255)%nat /\
      match h with
      | O => Forall rleafkid kids
      | S h' => Forall (rshape h') kids
      end
  end.

(* the local loops of rncsearch under names *)
Definition ritem_of (c : rnode) : Z :=
  match c with RItem _ it => it | RNode _ _ => 0 end.

Definition rnc_items (data : list Z) (ib : Z) : nat -> Z -> option (list Z) :=
  fix items (k : nat) (a : Z) : option (list Z) :=
    match k with
    | O => Some []
    | S k' => match read_num data a ib, items k' (a + ib) with
              | Some it, Some r => Some (it :: r)
              | _, _ => None
              end
    end.

Definition rnc_kids (rec : Z -> option (list Z)) (data : list Z)
  : nat -> Z -> option (list Z) :=
  fix kids (k : nat) (a : Z) : option (list Z) :=
    match k with
    | O => Some []
    | S k' =>
        match read_le data a 4 with
        | None => None
        | Some naddr =>
            match rec naddr, kids k' (a + 4) with
            | Some r1, Some r2 => Some (r1 ++ r2)
            | _, _ => None
            end
        end
    end.

Lemma rnc_items_S data ib k a :
  rnc_items data ib (S k) a =
  match read_num data a ib, rnc_items data ib k (a + ib) with
  | Some it, Some r => Some (it :: r)
  | _, _ => None
  end.
Proof. reflexivity. Qed.

Lemma rnc_kids_S rec data k a :
  rnc_kids rec data (S k) a =
  match read_le data a 4 with
  | None => None
  | Some naddr =>
      match rec naddr, rnc_kids rec data k (a + 4) with
      | Some r1, Some r2 => Some (r1 ++ r2)
      | _, _ => None
      end
  end.
Proof. reflexivity. Qed.

Lemma rncsearch_eq h data addr q :
  rncsearch rect_of fdec h data addr q =
  match read_f fdec data addr, read_f fdec data (addr + 8),
        read_f fdec data (addr + 16), read_f fdec data (addr + 24) with
  | Some nx, Some ny, Some xx, Some xy =>
      if negb (rect_intersects_rect q ((nx, ny), (xx, xy))) then Some []
      else
        match byte_at data (addr + 32) with
        | None => None
        | Some count =>
            match h with
            | O =>
                match byte_at data (addr + 33) with
                | None => None
                | Some ib =>
                    match rnc_items data ib (Z.to_nat count) (addr + 34) with
                    | None => None
                    | Some its =>
                        Some (filter (fun it => rect_intersects_rect (rect_of it) q) its)
                    end
                end
            | S h' =>
                rnc_kids (fun na => rncsearch rect_of fdec h' data na q) data
                         (Z.to_nat count) (addr + 33)
            end
        end
  | _, _, _, _ => None
  end.
Proof. destruct h; reflexivity. Qed.

Lemma rnc_items_eq data ib : forall k a, rnc_items data ib k a = read_items data a ib k.
Proof.
  induction k as [|k IH]; intros a; [reflexivity|].
  rewrite rnc_items_S, IH. reflexivity.
Qed.

Lemma leaf_items kids :
  Forall rleafkid kids -> Forall (fun x => 0 <= x < 2 ^ 32) (map ritem_of kids).
Proof.
  intros H. apply Forall_map. eapply Forall_impl; [|exact H].
  intros [b it|]; [trivial|contradiction].
Qed.

Lemma leaf_search kids q :
  Forall rleafkid kids ->
  flat_map (fun c => rsearch rect_of c q) kids =
  filter (fun it => rect_intersects_rect (rect_of it) q) (map ritem_of kids).
Proof.
  induction 1 as [|c kids Hc _ IH]; [reflexivity|].
  destruct c as [b it|]; [|contradiction].
  cbn [flat_map map filter rsearch ritem_of]. rewrite IH.
  destruct (rect_intersects_rect (rect_of it) q); reflexivity.
Qed.

Lemma renc_O base b kids :
  renc fenc O base (RNode b kids) =
  let ib := maxfold (map ritem_of kids) 1 in
  enc_box fenc b ++ [Z.of_nat (length kids) mod 256] ++ [ib] ++ enc_items ib (map ritem_of kids).
Proof.
  cbn [renc rbox rkids]. rewrite <- app_assoc. fold ritem_of.
  rewrite (maxfold_map ritem_of), enc_items_map. reflexivity.
Qed.

Definition rstep (h : nat) (st : list Z * list Z * Z) (c : rnode) : list Z * list Z * Z :=
  let '(addrs, body, addr) := st in
  let e := renc fenc h addr c in
  (addrs ++ le_bytes 4 (u32 addr), body ++ e, addr + Z.of_nat (length e)).

(* the table of child addresses and the child encodings, from address addr on *)
Definition raddrs (h : nat) : Z -> list rnode -> list Z :=
  lay_tbl rnode (fun _ a => le_bytes 4 (u32 a)) (fun c a => renc fenc h a c).
Definition rbodies (h : nat) : Z -> list rnode -> list Z :=
  lay_bodies rnode (fun c a => renc fenc h a c).

Lemma raddrs_length h : forall ks addr,
  Z.of_nat (length (raddrs h addr ks)) = 4 * Z.of_nat (length ks).
Proof.
  induction ks as [|c ks IH]; intros addr; [reflexivity|].
  unfold raddrs in *. cbn [lay_tbl]. rewrite app_length, le_bytes_length, Nat2Z.inj_add, IH.
  cbn [length]. lia.
Qed.

Lemma renc_S h base b kids :
  renc fenc (S h) base (RNode b kids) =
  let start := base + 33 + 4 * Z.of_nat (length kids) in
  enc_box fenc b ++ [Z.of_nat (length kids) mod 256] ++
  raddrs h start kids ++ rbodies h start kids.
Proof.
  change (renc fenc (S h) base (RNode b kids)) with
    (let hdr := enc_box fenc b ++ [Z.of_nat (length kids) mod 256] in
     let start := base + Z.of_nat (length hdr) + 4 * Z.of_nat (length kids) in
     let '(addrs, body, _) := fold_left (rstep h) kids ([], [], start) in
     hdr ++ addrs ++ body).
  cbv zeta. rewrite app_length, enc_box_length.
  change (Z.of_nat (32 + length [Z.of_nat (length kids) mod 256])) with 33.
  destruct (lay_fold rnode (fun _ a => le_bytes 4 (u32 a)) (fun c a => renc fenc h a c) (rstep h)
              (fun _ _ _ _ => eq_refl) kids [] [] (base + 33 + 4 * Z.of_nat (length kids)))
    as [fin E].
  rewrite E. cbn [app]. rewrite <- app_assoc. reflexivity.
Qed.

Lemma rnc_kids_ok h data q :
  (forall n base, rshape h n -> at_addr data base (renc fenc h base n) ->
                  rncsearch rect_of fdec h data base q = Some (rsearch rect_of n q)) ->
  Z.of_nat (length data) < 2 ^ 32 ->
  forall ks a c,
    Forall (rshape h) ks ->
    at_addr data a (raddrs h c ks) -> at_addr data c (rbodies h c ks) ->
    rnc_kids (fun na => rncsearch rect_of fdec h data na q) data (length ks) a =
    Some (flat_map (fun k => rsearch rect_of k q) ks).
Proof.
  intros IHh Hlen. induction ks as [|k ks IH]; intros a c Hf Ha Hb.
  - reflexivity.
  - inversion Hf as [|? ? Hk Hf']; subst.
    unfold raddrs, rbodies in *. cbn [lay_tbl lay_bodies] in Ha, Hb.
    destruct (at_app _ _ _ _ Hb) as [Hb1 Hb2].
    destruct (u32_step _ _ _ _ (addr_in_u32 _ _ _ Hb1 Hlen) Ha) as [Hr Ha2].
    cbn [length]. rewrite rnc_kids_S, Hr, (IHh k c Hk Hb1), (IH _ _ Hf' Ha2 Hb2).
    reflexivity.
Qed.

Lemma count_byte (kids : list rnode) :
  (length kids <= 255)%nat ->
  Z.to_nat (Z.of_nat (length kids) mod 256) = length kids.
Proof. intros H. rewrite Z.mod_small by lia. apply Nat2Z.id. Qed.

Lemma rncsearch_at : forall h n data base q,
  rshape h n ->
  at_addr data base (renc fenc h base n) ->
  Z.of_nat (length data) < 2 ^ 32 ->
  rncsearch rect_of fdec h data base q = Some (rsearch rect_of n q).
Proof.
  induction h as [|h IHh]; intros n data base q Hs Hat Hlen;
    (destruct n as [|b kids]; [contradiction|]); destruct Hs as [Hk Hs];
    destruct b as [[nx ny] [xx xy]].
  - rewrite renc_O in Hat. cbv zeta in Hat. rewrite rncsearch_eq.
    apply enc_box_at in Hat. destruct Hat as (-> & -> & -> & -> & Hat).
    cbv beta iota. cbn [rsearch].
    unfold pt.
    destruct (negb (rect_intersects_rect q (nx, ny, (xx, xy)))); [reflexivity|].
    cbn [app] in Hat. destruct (byte_step _ _ _ _ Hat) as [-> Hat1].
    replace (base + 32 + 1) with (base + 33) in Hat1 by lia.
    destruct (byte_step _ _ _ _ Hat1) as [-> Hat2].
    replace (base + 33 + 1) with (base + 34) in Hat2 by lia.
    rewrite <- (app_nil_r (enc_items _ _)) in Hat2.
    rewrite count_byte, rnc_items_eq, <- (map_length ritem_of kids) by assumption.
    rewrite (proj1 (items_step _ _ _ _ _ (maxfold_ok _ 1 (or_introl eq_refl))
                      (maxfold_fits _ 1 (or_introl eq_refl) (leaf_items _ Hs)) Hat2)).
    rewrite leaf_search by assumption. reflexivity.
  - rewrite renc_S in Hat. cbv zeta in Hat. rewrite rncsearch_eq.
    apply enc_box_at in Hat. destruct Hat as (-> & -> & -> & -> & Hat).
    cbv beta iota. cbn [rsearch].
    unfold pt.
    destruct (negb (rect_intersects_rect q (nx, ny, (xx, xy)))); [reflexivity|].
    cbn [app] in Hat. destruct (byte_step _ _ _ _ Hat) as [-> Hat1].
    replace (base + 32 + 1) with (base + 33) in Hat1 by lia.
    destruct (at_app _ _ _ _ Hat1) as [Ha Hb]. rewrite raddrs_length in Hb.
    rewrite count_byte by assumption.
    apply (rnc_kids_ok h data q) with (c := base + 33 + 4 * Z.of_nat (length kids));
      try assumption.
    intros n0 base0 Hn0 Hat0. apply IHh; assumption.
Qed.

(* the statement in "pre ++ _ ++ post" form *)
Lemma rncsearch_renc : forall h n pre post q,
  rshape h n ->
  let base := Z.of_nat (length pre) in
  let data := pre ++ renc fenc h base n ++ post in
  Z.of_nat (length data) < 2 ^ 32 ->
  rncsearch rect_of fdec h data base q = Some (rsearch rect_of n q).
Proof.
  intros h n pre post q Hs base data Hlen.
  apply rncsearch_at; [assumption|apply at_addr_intro|assumption].
Qed.

Theorem r_codec (t : rtree) (q : rect) :
  (match rroot t with None => True | Some r => rshape (rheight t) r end) ->
  (rheight t <= 255)%nat ->
  let data := set_compressed 1 (rtenc fenc t) in
  Z.of_nat (length data) < 2 ^ 32 ->
  rcsearch rect_of fdec data 5 q =
  Some (match rroot t with None => [] | Some r => rsearch rect_of r q end).
Proof.
  intros Hs Hh data Hlen. subst data. unfold rtenc in *.
  destruct (rroot t) as [r|].
  - pose proof (set_compressed_at 1 ([Z.of_nat (rheight t) mod 256] ++ renc fenc (rheight t) 6 r)) as Hat.
    set (data := set_compressed 1 _) in *.
    pose proof (at_bounds _ _ _ Hat) as [_ Hb].
    rewrite app_length in Hb. cbn [length] in Hb.
    unfold rcsearch.
    destruct (Z.eqb_spec 5 (Z.of_nat (length data))) as [E|_]; [lia|].
    cbn [app] in Hat. destruct (byte_step _ _ _ _ Hat) as [-> Hat']. change (5 + 1) with 6 in *.
    rewrite Z.mod_small by lia. rewrite Nat2Z.id.
    apply rncsearch_at; assumption.
  - unfold rcsearch, set_compressed.
    rewrite !app_length, le_bytes_length. reflexivity.
Qed.

(* The node invariant said side by side instead of through [is_lub] of
   RTreeProofs: every node has between 1 and K kids and its box is TIGHT, i.e. it
   covers the boxes of its kids and each of its four sides is attained by some kid. *)

Definition bnx (r : rect) : Z := fst (fst r).
Definition bny (r : rect) : Z := snd (fst r).
Definition bxx (r : rect) : Z := fst (snd r).
Definition bxy (r : rect) : Z := snd (snd r).

(* four "min-like" coordinates *)
Definition c1 (r : rect) : Z := bnx r.
Definition c2 (r : rect) : Z := bny r.
Definition c3 (r : rect) : Z := - bxx r.
Definition c4 (r : rect) : Z := - bxy r.
Definition coords : list (rect -> Z) := [c1; c2; c3; c4].

Definition tight1 (f : rnode -> Z) (B : Z) (ks : list rnode) : Prop :=
  (forall x, In x ks -> B <= f x) /\ (exists x, In x ks /\ f x = B).

Definition tight (b : rect) (ks : list rnode) : Prop :=
  forall cf, In cf coords -> tight1 (fun c => cf (rbox c)) (cf b) ks.

Definition ritemok (m : Z) (c : rnode) : Prop :=
  match c with RItem _ it => 0 <= it < m | RNode _ _ => False end.

Fixpoint rgoodk (K : nat) (m : Z) (h : nat) (n : rnode) {struct h} : Prop :=
  match n with
  | RItem _ _ => False
  | RNode b kids =>
      (length kids <= K)%nat /\ tight b kids /\
      match h with
      | O => Forall (ritemok m) kids
      | S h' => Forall (rgoodk 16 m h') kids
      end
  end.

Lemma rgoodk_weaken m h n : rgoodk 16 m h n -> rgoodk 17 m h n.
Proof.
  destruct n as [|b ks], h; cbn [rgoodk]; trivial;
    (intros (H1 & H2); split; [lia|exact H2]).
Qed.

(* The shape the codec needs follows from the invariant of RTreeProofs, taken
   with the trivial condition on boxes (so nothing is asked of rect_of), a
   bound on the node's own kid count, and a bound on the items below it. *)
Lemma rwfG_rshape h : forall n,
  rwfG rect_of (fun _ => True) h n -> (length (rkids n) <= 16)%nat ->
  (forall it, In it (ritems n) -> 0 <= it < 2 ^ 32) -> rshape h n.
Proof.
  induction h as [|h IH]; intros n Hw Hl Hit; (destruct n as [|b ks]; [contradiction|]);
    apply rwfG_node in Hw; destruct Hw as (_ & _ & _ & Hk); cbn [rkids] in Hl;
    (split; [lia|]); rewrite Forall_forall in *; intros k Hin; specialize (Hk k Hin);
    assert (Hitk : forall it, In it (ritems k) -> 0 <= it < 2 ^ 32)
      by (intros it Hi; apply Hit; rewrite ritems_node; apply in_flat_map; exists k; auto).
  - destruct Hk as (it & -> & _). apply Hitk. left; reflexivity.
  - apply IH; [apply Hk|apply Hk|exact Hitk].
Qed.

(* the trees produced by rbuild have the shape [r_codec] asks for *)
Theorem rbuild_shape n : Z.of_nat n <= 2 ^ 32 ->
  match rroot (rbuild rect_of n) with
  | None => True
  | Some r => rshape (rheight (rbuild rect_of n)) r
  end.
Proof.
  intros Hn.
  pose proof (rbuild_inv_any rect_of n) as Hinv.
  unfold tree_inv in Hinv. destruct (rroot (rbuild rect_of n)) as [r|]; [|exact I].
  destruct Hinv as (_ & (Hw & Hl) & Hp).
  apply (rwfG_rshape _ _ Hw Hl). intros it Hit.
  apply (Permutation_in _ Hp), in_map_iff in Hit. destruct Hit as (i & <- & Hi).
  apply in_seq in Hi. lia.
Qed.

End CodecR.

Print Assumptions rncsearch_renc.
Print Assumptions r_codec.
Print Assumptions rbuild_shape.
