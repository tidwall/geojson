(* Jordan.v — properties C02 / C03 (ring level): a discrete Jordan-curve argument.
   For ANY closed vertex sequence (repeated vertices, zero-length edges and
   self-intersections included) and any grid segment L-H:
   - if no ring edge meets the segment, both endpoints have the same crossing parity
     (parity_constant_off_boundary);
   - if both endpoints are strictly outside (off the boundary, even parity) and
     some ring edge meets the segment, then at least two edges (counted by position)
     meet it (two_edges_meet) — the fact ringIntersectsSegment's "count >= 2" rule
     relies on;
   hence ringIntersectsSegment with allowOnEdge is exactly
   "an endpoint is in the closed ring, or an edge meets the segment"
   (ring_intersects_segment_exact).
   The per-edge step is an identity between the two ray-crossing indicators and
   the indicator of the half-open region between the two rays, right of the segment. *)
From GJ Require Import Base Kernel KernelSpec Series SeriesSpec Ring RingSpec KernelProofs
  IntersectsProofs SeriesProofs PipProofs PairProofs.
Import ListNotations.
Open Scope Z_scope.

Definition crs (ay by_ p c : Z) : bool :=
  ((ay <=? p) && (p <? by_) && (0 <? c)) || ((by_ <=? p) && (p <? ay) && (c <? 0)).
Definition fRz (ly hy vy c : Z) : bool := (ly <? vy) && (vy <=? hy) && (c <? 0).
Definition wopp (x y : Z) : Prop := x <= 0 <= y \/ y <= 0 <= x.
Definition sopp (x y : Z) : Prop := x < 0 < y \/ y < 0 < x.

(* split on every comparison in the goal, dropping the cases the context refutes *)
Ltac dcmp :=
  repeat (match goal with
  | |- context [?x <=? ?y] => destruct (Z.leb_spec x y)
  | |- context [?x <? ?y] => destruct (Z.ltb_spec x y)
  end; cbn [andb orb xorb negb]; try lia).

(* reversing an edge changes the sign of every cross product taken from it: the identities below
   are proved for an edge that does not go down, and follow for the others *)
Lemma crs_swap ay by_ p c : crs by_ ay p (- c) = crs ay by_ p c.
Proof. unfold crs. rewrite orb_comm. f_equal; f_equal; apply bool_eq_iff; rewrite !Z.ltb_lt; lia. Qed.

(* an edge that does not go down is crossed upwards only *)
Lemma crs_up ay by_ p c : ay <= by_ -> crs ay by_ p c = (ay <=? p) && (p <? by_) && (0 <? c).
Proof.
  intros H. unfold crs. destruct (Z.leb_spec by_ p); [|apply orb_false_r].
  replace (p <? by_) with false by (symmetry; apply Z.ltb_ge; lia). rewrite andb_false_r.
  replace (p <? ay) with false by (symmetry; apply Z.ltb_ge; lia). reflexivity.
Qed.

Lemma edge_arith_nomeet_up ay by_ ly hy cL cH ca cb R :
  ay <= by_ ->
  ly <= hy -> (by_ - ay) * ca + (hy - ly) * cL + (ay - ly) * R = 0 -> cH = cL + R -> cb = ca - R ->
  ~ (R <> 0 /\ wopp cL cH /\ wopp ca cb) ->
  xorb (crs ay by_ ly cL) (crs ay by_ hy cH) = xorb (fRz ly hy ay ca) (fRz ly hy by_ cb).
Proof.
  intros Up Hy E1 E2 E3 N. unfold wopp in N. subst cH cb. rewrite !(crs_up ay by_) by exact Up. unfold fRz.
  (* N takes no part in pruning the cases: it comes back at the leaves *)
  revert N. dcmp; try reflexivity; intros N; exfalso.
  all: try (apply N; nia).
  all: nia.
Qed.

Lemma edge_arith_nomeet ay by_ ly hy cL cH ca cb R :
  ly <= hy -> (by_ - ay) * ca + (hy - ly) * cL + (ay - ly) * R = 0 -> cH = cL + R -> cb = ca - R ->
  ~ (R <> 0 /\ wopp cL cH /\ wopp ca cb) ->
  xorb (crs ay by_ ly cL) (crs ay by_ hy cH) = xorb (fRz ly hy ay ca) (fRz ly hy by_ cb).
Proof.
  intros Hy E1 E2 E3 N. destruct (Z.le_ge_cases ay by_) as [Up|Down].
  - apply (edge_arith_nomeet_up _ _ _ _ _ _ _ _ R); assumption.
  - rewrite <- !(crs_swap ay by_), (xorb_comm (fRz ly hy ay ca)).
    apply (edge_arith_nomeet_up _ _ _ _ _ _ _ _ (- R)); try lia. unfold wopp in *. lia.
Qed.

Lemma edge_arith_proper_up ay by_ ly hy cL cH ca cb R :
  ay <= by_ ->
  ly <= hy -> (by_ - ay) * ca + (hy - ly) * cL + (ay - ly) * R = 0 -> cH = cL + R -> cb = ca - R ->
  (by_ = ay -> hy = ly -> R = 0) ->
  sopp cL cH -> sopp ca cb ->
  xorb (crs ay by_ ly cL) (crs ay by_ hy cH) = negb (xorb (fRz ly hy ay ca) (fRz ly hy by_ cb)).
Proof.
  intros Up Hy E1 E2 E3 P S1 S2. unfold sopp in *. subst cH cb. rewrite !(crs_up ay by_) by exact Up. unfold fRz.
  revert P. dcmp; try reflexivity; intros P; exfalso.
  all: nia.
Qed.

Lemma edge_arith_proper ay by_ ly hy cL cH ca cb R :
  ly <= hy -> (by_ - ay) * ca + (hy - ly) * cL + (ay - ly) * R = 0 -> cH = cL + R -> cb = ca - R ->
  (by_ = ay -> hy = ly -> R = 0) ->
  sopp cL cH -> sopp ca cb ->
  xorb (crs ay by_ ly cL) (crs ay by_ hy cH) = negb (xorb (fRz ly hy ay ca) (fRz ly hy by_ cb)).
Proof.
  intros Hy E1 E2 E3 P S1 S2. destruct (Z.le_ge_cases ay by_) as [Up|Down].
  - apply (edge_arith_proper_up _ _ _ _ _ _ _ _ R); assumption.
  - rewrite <- !(crs_swap ay by_), (xorb_comm (fRz ly hy ay ca)).
    apply (edge_arith_proper_up _ _ _ _ _ _ _ _ (- R)); unfold sopp in *; lia.
Qed.

(* v lies in the half-open band between the two rays and strictly right of L->H *)
Definition fR (L H v : pt) : bool := (py L <? py v) && (py v <=? py H) && (cross L H v <? 0).

Lemma crossesb_crs a b p : crossesb (a, b) p = crs (py a) (py b) (py p) (cross a b p).
Proof. reflexivity. Qed.

Lemma id_E1 a b L H :
  (py b - py a) * cross L H a + (py H - py L) * cross a b L + (py a - py L) * rxs a b L H = 0.
Proof. unfold cross, rxs. ring. Qed.

(* transversal lines, endpoints weakly on opposite sides both ways: the segments meet *)
Lemma weak_meet a b c d :
  rxs a b c d <> 0 -> wopp (cross a b c) (cross a b d) -> wopp (cross c d a) (cross c d b) ->
  seg_meet (a, b) (c, d).
Proof.
  intros HR W1 W2. unfold wopp in *.
  pose proof (id_B a b c d) as HB. pose proof (id_D a b c d) as HD.
  destruct (Z.eq_dec (cross a b c) 0) as [EA|NA].
  - rewrite seg_meet_unfold. left.
    pose proof (id_ax a b c d) as Hax. pose proof (id_ay a b c d) as Hay.
    rewrite EA in Hax, Hay.
    apply (on_seg_of_frac a b c (cross c d a) (rxs a b c d)); [lia|lia|exact HR|unfold unit_fracP; lia].
  - apply transversal_meet; [exact NA|exact HR|]. unfold unit_fracP. lia.
Qed.

Lemma edge_nomeet a b L H :
  py L <= py H -> ~ seg_meet (a, b) (L, H) ->
  xorb (crossesb (a, b) L) (crossesb (a, b) H) = xorb (fR L H a) (fR L H b).
Proof.
  intros Hy N. rewrite !crossesb_crs.
  change (fR L H a) with (fRz (py L) (py H) (py a) (cross L H a)).
  change (fR L H b) with (fRz (py L) (py H) (py b) (cross L H b)).
  apply (edge_arith_nomeet _ _ _ _ _ _ _ _ (rxs a b L H)).
  - exact Hy.
  - apply id_E1.
  - apply id_B.
  - apply id_D.
  - intros (HR & W1 & W2). apply N. apply weak_meet; assumption.
Qed.

Lemma edge_proper a b L H :
  py L <= py H -> opp a b L H -> opp L H a b ->
  xorb (crossesb (a, b) L) (crossesb (a, b) H) = negb (xorb (fR L H a) (fR L H b)).
Proof.
  intros Hy O1 O2. rewrite !crossesb_crs.
  change (fR L H a) with (fRz (py L) (py H) (py a) (cross L H a)).
  change (fR L H b) with (fRz (py L) (py H) (py b) (cross L H b)).
  apply (edge_arith_proper _ _ _ _ _ _ _ _ (rxs a b L H)).
  - exact Hy.
  - apply id_E1.
  - apply id_B.
  - apply id_D.
  - intros E1 E2. unfold rxs. rewrite E1, E2. ring.
  - unfold opp, sopp in *. lia.
  - unfold opp, sopp in *. lia.
Qed.

Lemma in_ringb_false_iff E p : in_ringb E p = false <-> on_boundaryb E p = false /\ parityb E p = false.
Proof. apply orb_false_iff. Qed.

Lemma strictly_in_ringb_true_iff E p :
  strictly_in_ringb E p = true <-> on_boundaryb E p = false /\ parityb E p = true.
Proof. unfold strictly_in_ringb. rewrite andb_true_iff, negb_true_iff. tauto. Qed.

Lemma strictly_in_ringb_alt E p : strictly_in_ringb E p = negb (on_boundaryb E p) && in_ringb E p.
Proof. unfold strictly_in_ringb, in_ringb. destruct (on_boundaryb E p); reflexivity. Qed.

Lemma off_boundary_edge E p e : on_boundaryb E p = false -> In e E -> on_segb e p = false.
Proof. intros H. apply (proj1 (existsb_false_iff _ _) H). Qed.

Lemma not_on_boundary E p : (forall e, In e E -> ~ on_seg e p) -> on_boundaryb E p = false.
Proof.
  intros H. apply existsb_false_iff. intros e He. apply not_true_is_false. rewrite on_segb_iff. apply H, He.
Qed.

Lemma on_boundary_edge E p e : In e E -> on_seg e p -> on_boundaryb E p = true.
Proof. intros He Hon. apply on_boundaryb_iff. exists e. split; assumption. Qed.

Lemma xfold_xor {A : Type} (f g : A -> bool) (l : list A) :
  xorb (xfold f l) (xfold g l) = xfold (fun x => xorb (f x) (g x)) l.
Proof.
  induction l as [|x l IH]; [reflexivity|]. unfold xfold in *. cbn [fold_right]. rewrite <- IH.
  destruct (f x), (g x), (fold_right _ false l), (fold_right _ false l); reflexivity.
Qed.

(* when every other element gives false, the fold is the value at the one element *)
Lemma xfold_single {A : Type} (f : A -> bool) (l1 : list A) (x : A) (l2 : list A) :
  (forall y, In y (l1 ++ l2) -> f y = false) -> xfold f (l1 ++ x :: l2) = f x.
Proof.
  intros H. change (x :: l2) with ([x] ++ l2). rewrite !xfold_app, (xfold_all_false f l1), (xfold_all_false f l2).
  - unfold xfold. cbn [fold_right]. destruct (f x); reflexivity.
  - intros y Hy. apply H, in_or_app. right. exact Hy.
  - intros y Hy. apply H, in_or_app. left. exact Hy.
Qed.

Definition gdiff (L H : pt) (e : seg) : bool := xorb (crossesb e L) (crossesb e H).
Definition ftel (L H : pt) (e : seg) : bool := xorb (fR L H (fst e)) (fR L H (snd e)).

Lemma parity_diff sgs L H : xorb (parityb sgs L) (parityb sgs H) = xfold (gdiff L H) sgs.
Proof. rewrite !parityb_xfold, xfold_xor. reflexivity. Qed.

Lemma parity_constant_ordered (ps : list pt) (L H : pt) :
  py L <= py H ->
  (forall e, In e (ring_edges ps) -> ~ seg_meet e (L, H)) ->
  parityb (ring_edges ps) L = parityb (ring_edges ps) H.
Proof.
  intros Hy N. apply xorb_eq. rewrite parity_diff.
  rewrite (xfold_ext _ (ftel L H)); [apply ring_edges_telescope|].
  intros [a b] Hin. unfold gdiff, ftel. cbn [fst snd]. apply edge_nomeet; [exact Hy|apply N; exact Hin].
Qed.

Lemma seg_meet_swap_r s a b : seg_meet s (a, b) <-> seg_meet s (b, a).
Proof.
  destruct s as [c d]. rewrite !seg_meet_unfold. rewrite (on_seg_swap a b c), (on_seg_swap a b d).
  assert (O1 : opp c d a b <-> opp c d b a) by (unfold opp; tauto).
  assert (O2 : opp a b c d <-> opp b a c d).
  { unfold opp. rewrite !(cross_swap a b). lia. }
  tauto.
Qed.

Theorem parity_constant_off_boundary (ps : list pt) (A B : pt) :
  (forall e, In e (ring_edges ps) -> ~ seg_meet e (A, B)) ->
  parityb (ring_edges ps) A = parityb (ring_edges ps) B.
Proof.
  intros N. destruct (Z.le_ge_cases (py A) (py B)) as [Hy|Hy].
  - apply parity_constant_ordered; assumption.
  - symmetry. apply parity_constant_ordered; [exact Hy|].
    intros e Hin Hm. apply (N e Hin). apply seg_meet_swap_r. exact Hm.
Qed.

(* closed chains: every vertex of an edge belongs to another edge *)

Lemma path_segs_cons2 x y r : path_segs (x :: y :: r) = (x, y) :: path_segs (y :: r).
Proof. reflexivity. Qed.

Lemma path_segs_snoc (l : list pt) (a : pt) :
  l <> [] -> path_segs (l ++ [a]) = path_segs l ++ [(last l pt0, a)].
Proof.
  induction l as [|x l IH]; [congruence|]. intros _.
  destruct l as [|y r]; [reflexivity|].
  change ((x :: y :: r) ++ [a]) with (x :: y :: (r ++ [a])).
  rewrite !path_segs_cons2. change (y :: r ++ [a]) with ((y :: r) ++ [a]). rewrite IH by congruence.
  reflexivity.
Qed.

(* the closed path through the vertices of a ring: its segments are the edges of the ring *)
Definition closed_path (f : list pt) : list pt :=
  if pt_eqb (last f pt0) (hd pt0 f) then f else f ++ [hd pt0 f].

Lemma closed_path_segs (f : list pt) : (3 <= length f)%nat -> path_segs (closed_path f) = ring_edges f.
Proof.
  intros H3. unfold closed_path, ring_edges, segments_spec. cbn [closed pts].
  destruct (Nat.ltb_spec (length f) 3) as [?|_]; [lia|].
  destruct (pt_eqb (last f pt0) (hd pt0 f)); [reflexivity|].
  apply path_segs_snoc. intros ->. cbn in H3. lia.
Qed.

Lemma closed_path_in (f : list pt) (p : pt) : f <> [] -> (In p (closed_path f) <-> In p f).
Proof.
  intros Hne. unfold closed_path. destruct (pt_eqb (last f pt0) (hd pt0 f)); [tauto|].
  rewrite in_app_iff. cbn [In]. split; [|tauto]. intros [H|[<-|[]]]; [exact H|]. destruct f; [congruence|left; reflexivity].
Qed.

Lemma closed_path_hd (f : list pt) : hd pt0 (closed_path f) = hd pt0 f.
Proof. unfold closed_path. destruct (pt_eqb (last f pt0) (hd pt0 f)); [reflexivity|]. destruct f; reflexivity. Qed.

Lemma closed_path_closed (f : list pt) : hd pt0 (closed_path f) = last (closed_path f) pt0.
Proof.
  unfold closed_path. destruct (pt_eqb (last f pt0) (hd pt0 f)) eqn:E.
  - apply pt_eqb_eq in E. symmetry. exact E.
  - rewrite last_last. destruct f; reflexivity.
Qed.

Lemma closed_path_length (f : list pt) : (length f <= length (closed_path f))%nat.
Proof. unfold closed_path. destruct (pt_eqb (last f pt0) (hd pt0 f)); [lia|]. rewrite app_length. lia. Qed.

Lemma ring_edges_closed_path (ps : list pt) :
  (3 <= length ps)%nat ->
  exists qs, ring_edges ps = path_segs qs /\ hd pt0 qs = last qs pt0 /\ (3 <= length qs)%nat.
Proof.
  intros H3. exists (closed_path ps). split; [symmetry; apply closed_path_segs, H3|].
  split; [apply closed_path_closed|]. pose proof (closed_path_length ps). lia.
Qed.

Lemma path_segs_split (l : list pt) : forall E1 a b E2,
  path_segs l = E1 ++ (a, b) :: E2 ->
  exists l1 l2, l = l1 ++ a :: b :: l2 /\ E1 = path_segs (l1 ++ [a]) /\ E2 = path_segs (b :: l2).
Proof.
  induction l as [|x l IH]; intros E1 a b E2 H.
  - destruct E1; discriminate H.
  - destruct l as [|y r]; [destruct E1; discriminate H|].
    rewrite path_segs_cons2 in H. destruct E1 as [|e E1'].
    + cbn [app] in H. injection H as Hx Hy HE. subst x y. exists [], r. repeat split. symmetry; exact HE.
    + cbn [app] in H. injection H as He HE. subst e.
      destruct (IH E1' a b E2 HE) as (l1' & l2 & Hl & H1 & H2).
      exists (x :: l1'), l2. split; [cbn [app]; rewrite Hl; reflexivity|]. split; [|exact H2].
      destruct l1' as [|z l1''].
      * cbn [app] in Hl. injection Hl as Hy _. subst a. rewrite H1. reflexivity.
      * cbn [app] in Hl. injection Hl as Hy _. subst z. rewrite H1. reflexivity.
Qed.

Lemma path_segs_last_in (l : list pt) :
  (2 <= length l)%nat -> exists x, In (x, last l pt0) (path_segs l).
Proof.
  induction l as [|x l IH]; [cbn; lia|]. intros H2.
  destruct l as [|y r]; [cbn in H2; lia|]. destruct r as [|z r'].
  - exists x. left. reflexivity.
  - destruct IH as [w Hw]; [cbn; lia|]. exists w. rewrite path_segs_cons2. right. exact Hw.
Qed.

Lemma path_segs_hd_in (l : list pt) :
  (2 <= length l)%nat -> exists y, In (hd pt0 l, y) (path_segs l).
Proof.
  destruct l as [|x [|y r]]; cbn [length]; try lia. intros _. exists y. left. reflexivity.
Qed.

Lemma closed_neighbours (l : list pt) E1 a b E2 :
  hd pt0 l = last l pt0 -> (3 <= length l)%nat -> path_segs l = E1 ++ (a, b) :: E2 ->
  (exists e, In e (E1 ++ E2) /\ snd e = a) /\ (exists e, In e (E1 ++ E2) /\ fst e = b).
Proof.
  intros Hc H3 Hs. destruct (path_segs_split l E1 a b E2 Hs) as (l1 & l2 & Hl & H1 & H2). split.
  - destruct l1 as [|x l1'].
    + (* a is the first vertex = the last vertex *)
      cbn [app] in Hl. subst l. cbn [hd] in Hc.
      assert (Hl2 : l2 <> []) by (intros ->; cbn in H3; lia).
      destruct (path_segs_last_in (b :: l2)) as [w Hw]; [destruct l2; [congruence|cbn; lia]|].
      exists (w, last (b :: l2) pt0). split; [apply in_or_app; right; rewrite H2; exact Hw|].
      cbn [snd]. change (last (a :: b :: l2) pt0) with (last (b :: l2) pt0) in Hc. symmetry; exact Hc.
    + destruct (path_segs_last_in ((x :: l1') ++ [a])) as [w Hw]; [rewrite app_length; cbn; lia|].
      rewrite last_last in Hw. exists (w, a). split; [apply in_or_app; left; rewrite H1; exact Hw|reflexivity].
  - destruct l2 as [|y l2'].
    + (* b is the last vertex = the first vertex *)
      assert (Hl1 : l1 <> []) by (intros ->; subst l; cbn in H3; lia).
      assert (Hb : last l pt0 = b).
      { subst l. change (l1 ++ a :: [b]) with (l1 ++ [a] ++ [b]). rewrite app_assoc. apply last_last. }
      destruct (path_segs_hd_in (l1 ++ [a])) as [w Hw]; [rewrite app_length; destruct l1; [congruence|cbn; lia]|].
      exists (hd pt0 (l1 ++ [a]), w). split; [apply in_or_app; left; rewrite H1; exact Hw|].
      cbn [fst]. rewrite <- Hb, <- Hc. subst l. destruct l1; [congruence|reflexivity].
    + exists (b, y). split; [apply in_or_app; right; rewrite H2; left; reflexivity|reflexivity].
Qed.

(* a list with some, but fewer than two, elements satisfying f has exactly one *)
Lemma filter_lt2_split {A : Type} (f : A -> bool) (l : list A) :
  existsb f l = true -> (length (filter f l) < 2)%nat ->
  exists l1 x l2, l = l1 ++ x :: l2 /\ f x = true /\ (forall y, In y (l1 ++ l2) -> f y = false).
Proof.
  induction l as [|x l IH]; cbn [existsb filter]; [discriminate|]. intros He Hl.
  destruct (f x) eqn:Ex.
  - exists [], x, l. split; [reflexivity|]. split; [exact Ex|]. cbn [app length] in *.
    intros y Hy. destruct (f y) eqn:Ey; [|reflexivity]. exfalso.
    assert (In y (filter f l)) by (apply filter_In; split; assumption).
    destruct (filter f l); [contradiction|cbn in Hl; lia].
  - cbn [orb] in He. destruct (IH He Hl) as (l1 & z & l2 & -> & Hz & Hall).
    exists (x :: l1), z, l2. split; [reflexivity|]. split; [exact Hz|].
    intros y [<-|Hy]; [exact Ex|apply Hall; exact Hy].
Qed.

Lemma two_edges_meet_ordered (ps : list pt) (L H : pt) (m : seg -> bool) :
  py L <= py H ->
  (forall e, m e = true <-> seg_meet e (L, H)) ->
  in_ringb (ring_edges ps) L = false -> in_ringb (ring_edges ps) H = false ->
  existsb m (ring_edges ps) = true ->
  (2 <= length (filter m (ring_edges ps)))%nat.
Proof.
  intros Hy Hm HL HH Hex.
  destruct (le_lt_dec 2 (length (filter m (ring_edges ps)))) as [G|Lt]; [exact G|exfalso].
  destruct (filter_lt2_split m _ Hex Lt) as (E1 & e0 & E2 & HE & Hm0 & Hall).
  apply in_ringb_false_iff in HL, HH. destruct HL as [BL PL], HH as [BH PH].
  assert (H3 : (3 <= length ps)%nat).
  { destruct (le_lt_dec 3 (length ps)) as [?|S]; [assumption|].
    rewrite (ring_edges_short ps S) in HE. destruct E1; discriminate HE. }
  destruct (ring_edges_closed_path ps H3) as (qs & Hqs & Hclosed & Hq3).
  destruct e0 as [a b].
  (* the other edges telescope, so the lone meeting edge does too *)
  assert (G0 : xorb (gdiff L H (a, b)) (ftel L H (a, b)) = false).
  { rewrite <- (xfold_single (fun e => xorb (gdiff L H e) (ftel L H e)) E1 (a, b) E2).
    - rewrite <- HE, <- xfold_xor, <- parity_diff, PL, PH, !xorb_false_l. exact (ring_edges_telescope (fR L H) ps).
    - intros [c d] Hin. unfold gdiff, ftel. cbn [fst snd]. rewrite edge_nomeet; [apply xorb_nilpotent|exact Hy|].
      intros Hmeet. apply Hm in Hmeet. rewrite (Hall _ Hin) in Hmeet. discriminate Hmeet. }
  (* the lone meeting edge *)
  apply Hm in Hm0. rewrite seg_meet_unfold in Hm0.
  assert (Hin0 : In (a, b) (ring_edges ps)) by (rewrite HE; apply in_or_app; right; left; reflexivity).
  rewrite Hqs in HE.
  destruct (closed_neighbours qs E1 a b E2 Hclosed Hq3 HE) as [[ea [Hea Ea]] [eb [Heb Eb]]].
  destruct Hm0 as [O|[O|[O|[O|[O1 O2]]]]].
  - rewrite (on_boundary_edge _ L (a, b) Hin0 O) in BL. discriminate BL.
  - rewrite (on_boundary_edge _ H (a, b) Hin0 O) in BH. discriminate BH.
  - destruct ea as [x a']. cbn [snd] in Ea. subst a'.
    assert (M : m (x, a) = true) by (apply Hm; rewrite seg_meet_unfold; right; right; right; left; exact O).
    rewrite (Hall _ Hea) in M. discriminate M.
  - destruct eb as [b' y]. cbn [fst] in Eb. subst b'.
    assert (M : m (b, y) = true) by (apply Hm; rewrite seg_meet_unfold; right; right; left; exact O).
    rewrite (Hall _ Heb) in M. discriminate M.
  - unfold gdiff, ftel in G0. cbn [fst snd] in G0. rewrite (edge_proper a b L H Hy O1 O2) in G0.
    destruct (xorb (fR L H a) (fR L H b)); discriminate G0.
Qed.

(* both endpoints strictly outside and some edge meets the segment => at
   least two edges (by position) meet it *)
Theorem two_edges_meet (ps : list pt) (A B : pt) :
  in_ringb (ring_edges ps) A = false -> in_ringb (ring_edges ps) B = false ->
  existsb (fun e => intersects_segment (A, B) e) (ring_edges ps) = true ->
  (2 <= length (filter (fun e => intersects_segment (A, B) e) (ring_edges ps)))%nat.
Proof.
  intros HA HB Hex. destruct (Z.le_ge_cases (py A) (py B)) as [Hy|Hy].
  - apply (two_edges_meet_ordered ps A B); try assumption.
    intros e. rewrite intersects_segment_iff. apply seg_meet_sym.
  - apply (two_edges_meet_ordered ps B A); try assumption.
    intros e. rewrite intersects_segment_iff, seg_meet_sym. apply seg_meet_swap_r.
Qed.

Lemma ris_count_allow (sg : seg) (l : list (seg * nat)) : forall c aon bon,
  (2 <=? ris_count true sg l (c, aon, bon)) =
  (2 <=? c + Z.of_nat (length (filter (fun si => intersects_segment sg (fst si)) l))).
Proof.
  induction l as [|[s2 i] r IH]; intros c aon bon.
  - cbn [ris_count filter length]. f_equal. lia.
  - cbn [ris_count filter fst negb]. destruct (intersects_segment sg s2) eqn:Ei.
    + cbn [fst length]. destruct (Z.ltb_spec (c + 1) 2) as [Hlt|Hge].
      * rewrite IH. f_equal. lia.
      * transitivity true; [apply Z.leb_le; lia|symmetry; apply Z.leb_le; lia].
    + cbn [fst]. destruct (Z.ltb_spec c 2) as [Hlt|Hge].
      * apply IH.
      * transitivity true; [apply Z.leb_le; lia|symmetry; apply Z.leb_le; lia].
Qed.

Lemma filter_filter_impl {A : Type} (f k : A -> bool) (l : list A) :
  (forall x, f x = true -> k x = true) -> filter f (filter k l) = filter f l.
Proof.
  intros H. induction l as [|x l IH]; [reflexivity|]. cbn [filter].
  destruct (k x) eqn:Ek.
  - cbn [filter]. rewrite IH. reflexivity.
  - destruct (f x) eqn:Ef; [rewrite (H x Ef) in Ek; discriminate|exact IH].
Qed.

Lemma length_filter_indexed {A : Type} (g : A -> bool) (l : list A) :
  length (filter (fun si => g (fst si)) (indexed l)) = length (filter g l).
Proof.
  rewrite <- (map_fst_indexed l) at 2. generalize (indexed l) as il. intros il.
  induction il as [|[x i] il IH]; [reflexivity|]. cbn [filter map fst].
  destruct (g x); cbn [length]; rewrite IH; reflexivity.
Qed.

Lemma seg_meet_boxes (s o : seg) : seg_meet s o -> rect_intersects_rect (seg_rect o) (seg_rect s) = true.
Proof.
  destruct s as [a b], o as [c d]. intros Hm.
  pose proof (seg_meet_overlap_x a b c d Hm) as Hx. pose proof (seg_meet_overlap_y a b c d Hm) as Hy.
  apply rir_iff. unfold seg_rect, px, py in *. cbn [fst snd] in *. lia.
Qed.

Lemma in_ringb_in_bbox (ps : list pt) (p : pt) :
  in_ringb (ring_edges ps) p = true -> rect_contains_point (bbox_spec ps) p = true.
Proof.
  intros H. destruct (rect_contains_point (bbox_spec ps) p) eqn:E; [reflexivity|].
  destruct (outside_bbox_no_hit ps p E) as [H1 H2]. unfold in_ringb in H. rewrite H1, H2 in H. discriminate H.
Qed.

Lemma seg_rect_contains_ends (a b : pt) :
  rect_contains_point (seg_rect (a, b)) a = true /\ rect_contains_point (seg_rect (a, b)) b = true.
Proof.
  split; apply rect_contains_point_inbox; unfold inbox, seg_rect, px, py; cbn [fst snd]; lia.
Qed.

Lemma edge_rect_in_bbox (ps : list pt) (e : seg) :
  In e (ring_edges ps) -> rect_contains_rect (bbox_spec ps) (seg_rect e) = true.
Proof.
  destruct e as [a b]. intros Hin. destruct (ring_edges_endpoints ps a b Hin) as [Ha Hb].
  apply seg_rect_in_bbox; assumption.
Qed.

Lemma rcp_hit_in_ringb (ps : list pt) (p : pt) :
  rcp_hit (RS {| closed := true; pts := ps |}) p true = in_ringb (ring_edges ps) p.
Proof. rewrite ring_contains_point_spec. unfold in_ringb. destruct (on_boundaryb _ p); reflexivity. Qed.

Lemma rcp_hit_strict (ps : list pt) (p : pt) :
  rcp_hit (RS {| closed := true; pts := ps |}) p false = strictly_in_ringb (ring_edges ps) p.
Proof. rewrite ring_contains_point_spec. unfold strictly_in_ringb. destruct (on_boundaryb _ p); reflexivity. Qed.

(* the code's answer for a closed ring and a segment, with contact allowed *)
Theorem ring_intersects_segment_exact (ps : list pt) (A B : pt) :
  ring_intersects_segment (RS {| closed := true; pts := ps |}) (A, B) true =
  in_ringb (ring_edges ps) A || in_ringb (ring_edges ps) B ||
  existsb (fun e => seg_meetb e (A, B)) (ring_edges ps).
Proof.
  set (E := ring_edges ps).
  assert (Hex : existsb (fun e => seg_meetb e (A, B)) E = existsb (fun e => intersects_segment (A, B) e) E)
    by (apply existsb_ext'; intros e; apply seg_meetb_intersects).
  unfold ring_intersects_segment. cbn [fst snd]. rewrite !rcp_hit_in_ringb. fold E.
  unfold ring_search, ring_rect, ring_segments. rewrite RS_rect, RS_segs. fold (ring_edges ps). fold E.
  destruct (Nat.ltb_spec (length ps) 3) as [S|H3].
  - (* no edges *)
    unfold E. rewrite (ring_edges_short ps S). cbn [in_ringb on_boundaryb parityb existsb fold_right orb indexed combine filter length seq ris_count].
    destruct (negb _); reflexivity.
  - rewrite series_rect_spec by (rewrite closed_series_empty; apply Nat.ltb_ge; exact H3). cbn [pts].
    destruct (rect_intersects_rect (seg_rect (A, B)) (bbox_spec ps)) eqn:Ebox; cbn [negb].
    + destruct (in_ringb E A) eqn:EA; [reflexivity|]. destruct (in_ringb E B) eqn:EB; [reflexivity|]. cbn [orb].
      rewrite ris_count_allow. rewrite Z.add_0_l.
      rewrite (filter_filter_impl (fun si : seg * nat => intersects_segment (A, B) (fst si))).
      2:{ intros [e i] Hi. cbn [fst] in *. apply intersects_segment_iff in Hi. apply seg_meet_boxes. exact Hi. }
      rewrite (length_filter_indexed (fun e => intersects_segment (A, B) e)). rewrite Hex.
      destruct (existsb (fun e => intersects_segment (A, B) e) E) eqn:Em.
      * apply Z.leb_le. pose proof (two_edges_meet ps A B EA EB Em). fold E in H. lia.
      * apply Z.leb_gt. rewrite existsb_false_iff in Em.
        assert (filter (fun e => intersects_segment (A, B) e) E = []) as ->; [|cbn; lia].
        clear -Em. induction E as [|e E IH]; [reflexivity|]. cbn [filter].
        rewrite (Em e (or_introl eq_refl)). apply IH. intros x Hx. apply Em. right. exact Hx.
    + (* the boxes are disjoint: nothing can be shared *)
      symmetry. apply orb_false_iff. split; [apply orb_false_iff; split|].
      * destruct (in_ringb E A) eqn:EA; [|reflexivity]. exfalso.
        pose proof (two_points_meet _ _ A (proj1 (seg_rect_contains_ends A B)) (in_ringb_in_bbox ps A EA)). congruence.
      * destruct (in_ringb E B) eqn:EB; [|reflexivity]. exfalso.
        pose proof (two_points_meet _ _ B (proj2 (seg_rect_contains_ends A B)) (in_ringb_in_bbox ps B EB)). congruence.
      * apply existsb_false_iff. intros e Hin. destruct (seg_meetb e (A, B)) eqn:Em; [|reflexivity]. exfalso.
        apply seg_meetb_iff in Em. apply seg_meet_boxes in Em.
        pose proof (edge_rect_in_bbox ps e Hin) as Hc.
        assert (rect_intersects_rect (seg_rect (A, B)) (bbox_spec ps) = true); [|congruence].
        apply (rects_meet_mono _ (seg_rect (A, B)) _ (seg_rect e)); [apply rcr_refl|exact Hc|exact Em].
Qed.

Print Assumptions parity_constant_off_boundary.
Print Assumptions two_edges_meet.
Print Assumptions ring_intersects_segment_exact.
