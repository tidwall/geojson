(* ObjLaws3.v — property C09 at the object level: if A contains a non-empty B then A intersects B,
   through Features, collections and nesting.  Contains hands over a leaf x of A and a non-empty leaf
   y of B with x.Contains(y) at the Geometry interface; the geometry-level law (ObjLaws, ObjLaws2)
   gives x.Intersects(y); symmetry at the interface and the leaf flattening of Intersects (ObjSym)
   give A.Intersects(B). *)
From Coq Require Import ZArith Bool List.
From GJ Require Import PairSpec Pairs PairProofs Obj ObjProofs JordanRect ObjSym ObjSelf ObjLaws ObjLaws2.
Import ListNotations.
Open Scope Z_scope.

Definition recv_ok (x : shape) : Prop := match x with SRect r => rect_wf r | _ => True end.
Definition arg_ok (y : shape) : Prop := s_wf y /\ short y.

Lemma gcb_true a b : gcb a b = true -> g_contains a b = Some true.
Proof. unfold gcb. destruct (g_contains a b) as [[|]|]; intros H; try discriminate; reflexivity. Qed.

(* the law at the Geometry interface, all sixteen pairs: rectangles well-formed, the argument without holes
   and, when the receiver is a polygon (holes allowed), of fewer than 16 points (below the bounding-box
   shortcut of ringContainsRing, whose soundness with boundary contact is not proved) *)
Theorem g_contains_intersects_all (x y : shape) : recv_ok x -> s_wf y ->
  match x with SPoly _ _ => short y | _ => True end ->
  g_contains (g_of_shape x) (g_of_shape y) = Some true -> g_intersects (g_of_shape x) (g_of_shape y) = true.
Proof.
  destruct x as [p|r|ps|e hs]; cbn [recv_ok]; intros Hx Hy Hs.
  1-2: apply g_contains_intersects; cbn [rect_decided s_wf]; auto.
  all: destruct y as [q|o|qs|f gs]; rewrite ?g_of_line, ?g_of_poly; cbn [g_of_shape g_contains g_intersects ob s_wf short] in *; intros H.
  - injection H as H'. exact H'.
  - apply line_contains_rect_intersects; assumption.
  - apply line_contains_line_intersects; assumption.
  - subst gs. apply line_contains_poly_intersects; assumption.
  - injection H as H'. exact H'.
  - injection H as H'. apply poly_contains_rect_intersects; assumption.
  - injection H as H'. apply poly_contains_line_intersects; assumption.
  - injection H as H'. subst gs. apply poly_contains_poly_intersects; assumption.
Qed.

(* B within a geometry g: some non-empty leaf of B is contained by g *)
Lemma o_within_g_has_leaf (b : obj) : forall g, o_within_g b g = true -> o_empty b = false ->
  exists y, In y (sleaves b) /\ s_empty y = false /\ gcb g (g_of_shape y) = true.
Proof.
  induction b as [o go E|b IH|k cs IH] using obj_leaf_ind; intros g H Hne.
  - rewrite (leaf_o_within_g o go g E) in H. destruct (leaf_sleaves o go E) as (s & -> & -> & He). rewrite He in Hne.
    exists s. split; [left; reflexivity|]. split; assumption.
  - apply (IH g H Hne).
  - cbn [o_within_g sleaves o_empty] in *. apply andb_true_iff in H. destruct H as [_ H]. rewrite forallb_forall in H.
    rewrite Forall_forall in IH.
    destruct (proj1 (forallb_false _ _) Hne) as (c & Hc & Ec). specialize (H c Hc). apply visits_and in H. destruct H as (_ & _ & H).
    destruct (IH c Hc g H Ec) as (y & Hy & Ny & Hg).
    exists y. split; [apply in_flat_map; exists c; split; assumption|]. split; assumption.
Qed.

(* A contains a non-empty B: a leaf of A contains a non-empty leaf of B at the Geometry interface *)
Lemma o_contains_leaf (a : obj) : forall b, o_contains a b = true -> o_empty b = false ->
  exists x y, In x (sleaves a) /\ In y (sleaves b) /\ s_empty y = false /\ gcb (g_of_shape x) (g_of_shape y) = true.
Proof.
  induction a as [o go E|a IH|k cs IH] using obj_leaf_ind; intros b H Hne.
  - rewrite (leaf_o_contains o go b E) in H. destruct (leaf_sleaves o go E) as (s & -> & -> & _).
    destruct (o_within_g_has_leaf b _ H Hne) as (y & Hy & Ny & Hg). exists s, y. split; [left; reflexivity|]. auto.
  - apply (IH b H Hne).
  - cbn [o_contains sleaves] in *. rewrite Forall_forall in IH. destruct (forallb o_empty cs); [discriminate|].
    destruct (nonempty_parts_c b) as [|geom parts] eqn:Ep; [discriminate|].
    assert (Hg : In geom (nonempty_parts_c b)) by (rewrite Ep; left; reflexivity). apply in_nonempty in Hg. destruct Hg as [Hg Eg].
    cbn [forallb] in H. apply andb_true_iff in H. destruct H as [H _]. apply visit_some in H. destruct H as (c & Hc & _ & _ & H).
    destruct (IH c Hc geom H Eg) as (x & y & Hx & Hy & Ny & Hgc).
    exists x, y. split; [apply in_flat_map; exists c; split; assumption|]. split; [|auto].
    rewrite <- sleaves_for_each_part. apply in_flat_map. exists geom. split; assumption.
Qed.

Theorem o_contains_intersects (a b : obj) : obj_wf a -> obj_wf b ->
  (forall x, In x (sleaves a) -> recv_ok x) -> (forall y, In y (sleaves b) -> arg_ok y) ->
  (forall x y, In x (sleaves a) -> In y (sleaves b) -> no_hole_pair x y) ->
  o_empty b = false -> o_contains a b = true -> o_intersects a b = true.
Proof.
  intros Hwa Hwb Ha Hb Hnh Hne H. destruct (o_contains_leaf a b H Hne) as (x & y & Hx & Hy & Ny & Hg).
  apply (o_intersects_flat a b Hwa Hwb). exists x, y. split; [exact Hx|]. split; [exact Hy|].
  rewrite <- (g_intersects_sym x y (Hnh x y Hx Hy)).
  destruct (Hb y Hy) as [Wy Sy].
  apply g_contains_intersects_all; [apply Ha; exact Hx|exact Wy|destruct x; auto|apply gcb_true; exact Hg].
Qed.

Print Assumptions o_contains_intersects.

(* not vacuous: a FeatureCollection of a polygon with a hole and a line contains a Feature of a
   collection (line along the rim, point in the material, empty line string skipped) *)
Definition law_a : obj :=
  OColl 4 [OFeature (OPoly [[(0,0);(8,0);(8,8);(0,8);(0,0)]; [(2,2);(4,2);(4,4);(2,4);(2,2)]]); OLine [(10,0);(14,0);(20,0)]].
Definition law_b : obj :=
  OFeature (OColl 3 [OLine [(0,0);(8,0);(8,3)]; OLine []; OPoint (5,5); ORect ((11,0),(13,0))]).
Example law_objects : o_contains law_a law_b = true /\ o_empty law_b = false /\ o_intersects law_a law_b = true.
Proof. vm_compute. repeat split; reflexivity. Qed.
