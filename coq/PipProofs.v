(* PipProofs.v — C01 "point membership is exact": the ray-casting point-in-ring
   of geometry/ring.go (bounding-box pre-check, horizontal-strip filter, parity
   toggle per crossing, early exit on an edge) equals the specification
   hit = (if the point is on the boundary then allowOnEdge else crossing parity). *)
From GJ Require Import Base Kernel KernelSpec KernelProofs Series SeriesSpec SeriesProofs Ring RingSpec.
From Coq Require Import Sorting.Permutation.

(* xor-fold of a boolean observation over a list *)
Definition xfold {A : Type} (f : A -> bool) (l : list A) : bool :=
  fold_right (fun x acc => xorb (f x) acc) false l.

Lemma xfold_app {A : Type} (f : A -> bool) (l1 l2 : list A) :
  xfold f (l1 ++ l2) = xorb (xfold f l1) (xfold f l2).
Proof.
  unfold xfold. induction l1 as [|x l1 IH]; cbn [app fold_right].
  - destruct (fold_right _ _ l2); reflexivity.
  - rewrite IH. rewrite xorb_assoc. reflexivity.
Qed.

Lemma xfold_ext {A : Type} (f g : A -> bool) (l : list A) :
  (forall x, In x l -> f x = g x) -> xfold f l = xfold g l.
Proof.
  unfold xfold. induction l as [|x l IH]; intros H; cbn [fold_right]; [reflexivity|].
  rewrite (H x) by (left; reflexivity). rewrite IH; [reflexivity|].
  intros y Hy. apply H. right; assumption.
Qed.

Lemma xfold_all_false {A : Type} (f : A -> bool) (l : list A) :
  (forall x, In x l -> f x = false) -> xfold f l = false.
Proof.
  unfold xfold. induction l as [|x l IH]; intros H; cbn [fold_right]; [reflexivity|].
  rewrite (H x) by (left; reflexivity). rewrite IH; [reflexivity|].
  intros y Hy. apply H. right; assumption.
Qed.

Lemma xfold_perm {A : Type} (f : A -> bool) (l l' : list A) :
  Permutation l l' -> xfold f l = xfold f l'.
Proof.
  unfold xfold. induction 1; cbn [fold_right].
  - reflexivity.
  - rewrite IHPermutation. reflexivity.
  - destruct (f x), (f y), (fold_right _ _ l); reflexivity.
  - congruence.
Qed.

Lemma xfold_filter_irrel {A : Type} (f k : A -> bool) (l : list A) :
  (forall x, k x = false -> f x = false) -> xfold f (filter k l) = xfold f l.
Proof.
  intros H. unfold xfold. induction l as [|x l IH]; cbn [filter fold_right]; [reflexivity|].
  destruct (k x) eqn:E; cbn [fold_right].
  - rewrite IH. reflexivity.
  - rewrite (H x E). rewrite IH. destruct (fold_right _ _ l); reflexivity.
Qed.

Lemma xfold_map {A B : Type} (g : A -> B) (f : B -> bool) (l : list A) :
  xfold f (map g l) = xfold (fun x => f (g x)) l.
Proof.
  unfold xfold. induction l as [|x l IH]; cbn [map fold_right]; [reflexivity|].
  rewrite IH. reflexivity.
Qed.

Lemma existsb_perm {A : Type} (f : A -> bool) (l l' : list A) :
  Permutation l l' -> existsb f l = existsb f l'.
Proof.
  induction 1; cbn [existsb].
  - reflexivity.
  - rewrite IHPermutation. reflexivity.
  - destruct (f x), (f y); reflexivity.
  - congruence.
Qed.

Lemma existsb_filter_irrel {A : Type} (f k : A -> bool) (l : list A) :
  (forall x, k x = false -> f x = false) -> existsb f (filter k l) = existsb f l.
Proof.
  intros H. induction l as [|x l IH]; cbn [filter existsb]; [reflexivity|].
  destruct (k x) eqn:E; cbn [existsb].
  - rewrite IH. reflexivity.
  - rewrite (H x E). rewrite IH. reflexivity.
Qed.

Lemma existsb_false_iff {A : Type} (f : A -> bool) (l : list A) :
  existsb f l = false <-> (forall x, In x l -> f x = false).
Proof.
  induction l as [|x l IH]; cbn [existsb In].
  - split; [intros _ y []|reflexivity].
  - rewrite orb_false_iff, IH. split.
    + intros [H1 H2] y [<-|Hy]; auto.
    + intros H. split; [apply H; left; reflexivity|]. intros y Hy. apply H. right; assumption.
Qed.

Lemma existsb_map_ext {A B : Type} (g : A -> B) (f' : B -> bool) (f : A -> bool) (l : list A) :
  (forall x, f' (g x) = f x) -> existsb f' (map g l) = existsb f l.
Proof. intros H. induction l as [|x l IH]; cbn [map existsb]; [reflexivity|]. rewrite H, IH. reflexivity. Qed.

Lemma existsb_map {A B : Type} (g : A -> B) (f : B -> bool) (l : list A) :
  existsb f (map g l) = existsb (fun x => f (g x)) l.
Proof. apply existsb_map_ext. reflexivity. Qed.

Lemma forallb_map_ext {A B : Type} (g : A -> B) (f' : B -> bool) (f : A -> bool) (l : list A) :
  (forall x, f' (g x) = f x) -> forallb f' (map g l) = forallb f l.
Proof. intros H. induction l as [|x l IH]; cbn [map forallb]; [reflexivity|]. rewrite H, IH. reflexivity. Qed.

Lemma map_fst_combine_seq {A : Type} (l : list A) : forall s,
  map fst (combine l (seq s (length l))) = l.
Proof.
  induction l as [|x l IH]; intros s; cbn [length seq combine map fst]; [reflexivity|].
  rewrite IH. reflexivity.
Qed.

Lemma map_fst_indexed {A : Type} (l : list A) : map fst (indexed l) = l.
Proof. unfold indexed. apply map_fst_combine_seq. Qed.

Lemma existsb_indexed {A : Type} (g : A -> bool) (l : list A) :
  existsb (fun si => g (fst si)) (indexed l) = existsb g l.
Proof. rewrite <- (existsb_map fst g). rewrite map_fst_indexed. reflexivity. Qed.

Lemma xfold_indexed {A : Type} (g : A -> bool) (l : list A) :
  xfold (fun si => g (fst si)) (indexed l) = xfold g l.
Proof. rewrite <- (xfold_map fst g). rewrite map_fst_indexed. reflexivity. Qed.

Lemma parityb_xfold (sgs : list seg) (p : pt) :
  parityb sgs p = xfold (fun s => crossesb s p) sgs.
Proof. reflexivity. Qed.

Theorem pip_fold_spec (allow : bool) (p : pt) (l : list (seg * nat)) (inn : bool) :
  fst (pip_fold allow p l inn) =
    if existsb (fun si => on_segb (fst si) p) l then allow
    else xorb inn (xfold (fun si => crossesb (fst si) p) l).
Proof.
  unfold xfold. revert inn. induction l as [|[sg i] r IH]; intros inn.
  - cbn [pip_fold existsb fold_right fst]. destruct inn; reflexivity.
  - cbn [pip_fold existsb fold_right fst]. rewrite raycast_eq_spec.
    destruct (on_segb sg p); cbn [orb negb andb fst].
    + reflexivity.
    + rewrite IH. rewrite andb_true_r.
      destruct (existsb (fun si => on_segb (fst si) p) r); [reflexivity|].
      destruct (crossesb sg p), inn,
        (fold_right (fun si acc => xorb (crossesb (fst si) p) acc) false r); reflexivity.
Qed.

Theorem pip_fold_perm (allow : bool) (p : pt) (l l' : list (seg * nat)) (inn : bool) :
  Permutation l l' -> fst (pip_fold allow p l inn) = fst (pip_fold allow p l' inn).
Proof.
  intros HP. rewrite !pip_fold_spec, (existsb_perm _ _ _ HP), (xfold_perm _ _ _ HP). reflexivity.
Qed.

Definition strip_keep (y : Z) (si : seg * nat) : bool :=
  let '((_, mny), (_, mxy)) := seg_rect (fst si) in negb ((y <? mny) || (mxy <? y)).

Lemma strip_search_eq (r : rng) (y : Z) :
  strip_search r y = filter (strip_keep y) (indexed (ring_segments r)).
Proof. reflexivity. Qed.

Lemma strip_keep_false (p : pt) (si : seg * nat) :
  strip_keep (py p) si = false ->
  on_segb (fst si) p = false /\ crossesb (fst si) p = false.
Proof.
  destruct si as [[[ax ay] [bx by_]] i], p as [x y].
  unfold strip_keep, seg_rect, on_segb, crossesb, px, py. cbn [fst snd].
  rewrite negb_false_iff, orb_true_iff, !Z.ltb_lt. intros H.
  split.
  - destruct (Z.leb_spec (Z.min ay by_) y); destruct (Z.leb_spec y (Z.max ay by_));
      rewrite ?andb_false_r; try reflexivity; lia.
  - destruct (Z.leb_spec ay y); destruct (Z.ltb_spec y by_);
    destruct (Z.leb_spec by_ y); destruct (Z.ltb_spec y ay);
      cbn [andb orb]; try reflexivity; lia.
Qed.

Theorem strip_search_sound (r : rng) (p : pt) :
  existsb (fun si => on_segb (fst si) p) (strip_search r (py p)) = on_boundaryb (ring_segments r) p /\
  xfold (fun si => crossesb (fst si) p) (strip_search r (py p)) = parityb (ring_segments r) p.
Proof.
  rewrite strip_search_eq. split.
  - rewrite existsb_filter_irrel by (intros si H; apply (strip_keep_false p si H)).
    unfold on_boundaryb. apply (existsb_indexed (fun s => on_segb s p)).
  - rewrite parityb_xfold, xfold_filter_irrel by (intros si H; apply (strip_keep_false p si H)).
    apply (xfold_indexed (fun s => crossesb s p)).
Qed.

(* the whole of ringContainsPoint, for any ring *)
Lemma rcp_hit_gen (r : rng) (p : pt) (allow : bool) :
  rcp_hit r p allow =
    if rect_contains_point (ring_rect r) p
    then (if on_boundaryb (ring_segments r) p then allow else parityb (ring_segments r) p)
    else false.
Proof.
  unfold rcp_hit, ring_contains_point.
  destruct (rect_contains_point (ring_rect r) p); cbn [negb fst]; [|reflexivity].
  rewrite pip_fold_spec. destruct (strip_search_sound r p) as [-> ->].
  rewrite xorb_false_l. reflexivity.
Qed.

Theorem rect_contains_point_spec (r : rect) (p : pt) : rect_contains_point r p = in_rectb r p.
Proof. destruct r as [mn mx]. reflexivity. Qed.

Lemma RS_eq (s : series) :
  RS s = {| r_pts := pts s; r_segs := segments_spec s; r_rect := series_rect s;
            r_convex := series_convex s; r_cw := series_clockwise s; r_empty := series_empty s |}.
Proof.
  unfold RS, series_rect, series_convex, series_clockwise.
  destruct (process_points (pts s) (closed s)) as [[cv rc] cw]. reflexivity.
Qed.

Lemma RS_rect (s : series) : r_rect (RS s) = series_rect s.
Proof. rewrite RS_eq. reflexivity. Qed.
Lemma RS_segs (s : series) : r_segs (RS s) = segments_spec s.
Proof. rewrite RS_eq. reflexivity. Qed.
Lemma RS_pts (s : series) : r_pts (RS s) = pts s.
Proof. rewrite RS_eq. reflexivity. Qed.
Lemma RS_empty (s : series) : r_empty (RS s) = series_empty s.
Proof. rewrite RS_eq. reflexivity. Qed.
Lemma RS_convex (s : series) : r_convex (RS s) = series_convex s.
Proof. rewrite RS_eq. reflexivity. Qed.
Lemma RS_cw (s : series) : r_cw (RS s) = series_clockwise s.
Proof. rewrite RS_eq. reflexivity. Qed.

Lemma point_query_false (s : seg) (p : pt) :
  rect_intersects_rect (seg_rect s) (p, p) = false -> on_segb s p = false.
Proof.
  destruct s as [[ax ay] [bx by_]], p as [x y].
  unfold rect_intersects_rect, seg_rect, on_segb, px, py. cbn [fst snd].
  generalize (Z.min ax bx), (Z.max ax bx), (Z.min ay by_), (Z.max ay by_).
  intros mnx mxx mny mxy H.
  destruct (Z.leb_spec mnx x); destruct (Z.leb_spec x mxx);
  destruct (Z.leb_spec mny y); destruct (Z.leb_spec y mxy);
    rewrite ?andb_false_r, ?andb_false_l; try reflexivity.
  exfalso. revert H.
  destruct (Z.ltb_spec y mny); [lia|]. destruct (Z.ltb_spec mxy y); [lia|].
  destruct (Z.ltb_spec x mnx); [lia|]. destruct (Z.ltb_spec mxx x); [lia|].
  cbn [orb]. discriminate.
Qed.

Theorem line_contains_point_spec (ps : list pt) (p : pt) :
  line_contains_point {| closed := false; pts := ps |} p = in_lineb ps p.
Proof.
  unfold line_contains_point, ring_search, ring_segments, in_lineb, on_boundaryb.
  rewrite RS_segs. unfold segments_spec. cbn [closed pts].
  rewrite (existsb_filter_irrel (fun si : seg * nat => raycast_on (fst si) p)).
  - rewrite (existsb_indexed (fun s => raycast_on s p)).
    induction (path_segs ps) as [|s l IH]; cbn [existsb]; [reflexivity|].
    rewrite raycast_on_eq, IH. reflexivity.
  - intros si H. rewrite raycast_on_eq. apply point_query_false. exact H.
Qed.

Theorem parityb_odd (sgs : list seg) (p : pt) :
  parityb sgs p = Nat.odd (length (filter (fun s => crossesb s p) sgs)).
Proof.
  unfold parityb. induction sgs as [|s l IH]; cbn [fold_right filter]; [reflexivity|].
  rewrite IH. destruct (crossesb s p); cbn [length].
  - rewrite Nat.odd_succ, <- Nat.negb_odd.
    destruct (Nat.odd (length (filter (fun s0 => crossesb s0 p) l))); reflexivity.
  - destruct (Nat.odd (length (filter (fun s0 => crossesb s0 p) l))); reflexivity.
Qed.

Theorem on_boundaryb_iff (sgs : list seg) (p : pt) :
  on_boundaryb sgs p = true <-> on_boundary sgs p.
Proof.
  unfold on_boundaryb, on_boundary. rewrite existsb_exists.
  split; intros [s [H1 H2]]; exists s; (split; [exact H1|]); apply on_segb_iff; exact H2.
Qed.

Definition above (p v : pt) : bool := py p <? py v.

Lemma crossesb_spans (a b p : pt) :
  crossesb (a, b) p = true -> xorb (above p a) (above p b) = true.
Proof.
  rewrite crossesb_iff. unfold crosses, above.
  intros [[H _]|[H _]];
    destruct (Z.ltb_spec (py p) (py a)), (Z.ltb_spec (py p) (py b)); try reflexivity; lia.
Qed.

Lemma not_spans_no_cross (a b p : pt) :
  xorb (above p a) (above p b) = false -> crossesb (a, b) p = false.
Proof.
  intros H. destruct (crossesb (a, b) p) eqn:E; [|reflexivity].
  apply crossesb_spans in E. congruence.
Qed.

Lemma right_no_cross (a b p : pt) :
  px a < px p -> px b < px p -> crossesb (a, b) p = false.
Proof.
  intros Ha Hb. apply not_true_is_false. rewrite crossesb_iff.
  destruct a as [ax ay], b as [bx by_], p as [x y].
  unfold crosses, cross, px, py in *. cbn [fst snd] in *.
  intros [[[H1 H2] H3]|[[H1 H2] H3]].
  - assert (0 <= (x - bx) * (y - ay)) by nia.
    assert (0 < (x - ax) * (by_ - y)) by nia.
    nia.
  - assert (0 <= (x - ax) * (y - by_)) by nia.
    assert (0 < (x - bx) * (ay - y)) by nia.
    nia.
Qed.

Lemma left_cross_iff_spans (a b p : pt) :
  px p < px a -> px p < px b ->
  crossesb (a, b) p = xorb (above p a) (above p b).
Proof.
  intros Ha Hb. apply bool_eq_iff. split; [apply crossesb_spans|].
  rewrite crossesb_iff.
  destruct a as [ax ay], b as [bx by_], p as [x y].
  unfold crosses, cross, above, px, py in *. cbn [fst snd] in *.
  destruct (Z.ltb_spec y ay); destruct (Z.ltb_spec y by_); cbn [xorb]; try discriminate; intros _.
  - right. split; [lia|].
    assert (0 <= (bx - x) * (ay - y)) by nia.
    assert (0 < (ax - x) * (ay - by_ - (ay - y)) \/ by_ = y) by nia.
    nia.
  - left. split; [lia|].
    assert (0 <= (bx - x) * (y - ay)) by nia.
    assert (0 < (ax - x) * (by_ - y)) by nia.
    nia.
Qed.

Definition inbox (r : rect) (v : pt) : Prop :=
  px (fst r) <= px v <= px (snd r) /\ py (fst r) <= py v <= py (snd r).

Lemma on_segb_inbox (r : rect) (a b p : pt) :
  inbox r a -> inbox r b -> on_segb (a, b) p = true -> inbox r p.
Proof.
  rewrite on_segb_iff. unfold on_seg, inbox. intros Ha Hb (_ & Hx & Hy). lia.
Qed.

Lemma rect_contains_point_inbox (r : rect) (p : pt) :
  rect_contains_point r p = true <-> inbox r p.
Proof.
  destruct r as [mn mx]. unfold rect_contains_point, inbox. cbn [fst snd].
  rewrite !andb_true_iff, !Z.leb_le. tauto.
Qed.

Lemma path_telescope (f : pt -> bool) (l : list pt) :
  xfold (fun s : seg => xorb (f (fst s)) (f (snd s))) (path_segs l) =
  xorb (f (hd pt0 l)) (f (last l pt0)).
Proof.
  induction l as [|a l IH].
  - cbn. destruct (f pt0); reflexivity.
  - destruct l as [|b r].
    + cbn. destruct (f a); reflexivity.
    + change (path_segs (a :: b :: r)) with ((a, b) :: path_segs (b :: r)).
      change (last (a :: b :: r) pt0) with (last (b :: r) pt0).
      unfold xfold in *. cbn [fold_right fst snd hd] in *. rewrite IH.
      destruct (f a), (f b), (f (last (b :: r) pt0)); reflexivity.
Qed.

Lemma last_In (l : list pt) : l <> [] -> In (last l pt0) l.
Proof.
  induction l as [|x l IH]; [congruence|]. intros _.
  destruct l as [|y r]; [left; reflexivity|].
  change (last (x :: y :: r) pt0) with (last (y :: r) pt0).
  right. apply IH. discriminate.
Qed.

Lemma hd_In (l : list pt) : l <> [] -> In (hd pt0 l) l.
Proof. destruct l; [congruence|]. intros _. left; reflexivity. Qed.

Lemma path_segs_endpoints (l : list pt) (a b : pt) :
  In (a, b) (path_segs l) -> In a l /\ In b l.
Proof.
  induction l as [|x l IH]; [intros []|].
  destruct l as [|y r]; [intros []|].
  change (path_segs (x :: y :: r)) with ((x, y) :: path_segs (y :: r)).
  intros [H|H].
  - inversion H; subst. split; [left; reflexivity|right; left; reflexivity].
  - destruct (IH H) as [H1 H2]. split; right; assumption.
Qed.

(* the segment rule for a ring: the path through the points, and the closing
   edge unless the last point repeats the first *)
Lemma ring_edges_eq (ps : list pt) :
  ring_edges ps =
    if (length ps <? 3)%nat then []
    else path_segs ps ++
         (if pt_eqb (last ps pt0) (hd pt0 ps) then [] else [(last ps pt0, hd pt0 ps)]).
Proof.
  unfold ring_edges, segments_spec. cbn [closed pts].
  destruct (length ps <? 3)%nat; [reflexivity|].
  destruct (pt_eqb (last ps pt0) (hd pt0 ps)); [rewrite app_nil_r|]; reflexivity.
Qed.

Lemma ring_edges_short (ps : list pt) : (length ps < 3)%nat -> ring_edges ps = [].
Proof.
  intros H. rewrite ring_edges_eq.
  destruct (Nat.ltb_spec (length ps) 3); [reflexivity|lia].
Qed.

(* around a closed ring the spanning indicator is raised an even number of times *)
Lemma ring_edges_telescope (f : pt -> bool) (ps : list pt) :
  xfold (fun s : seg => xorb (f (fst s)) (f (snd s))) (ring_edges ps) = false.
Proof.
  rewrite ring_edges_eq. destruct (length ps <? 3)%nat; [reflexivity|].
  rewrite xfold_app, path_telescope.
  destruct (pt_eqb (last ps pt0) (hd pt0 ps)) eqn:E.
  - apply pt_eqb_eq in E. rewrite E. cbn. rewrite xorb_false_r. apply xorb_nilpotent.
  - cbn. destruct (f (hd pt0 ps)), (f (last ps pt0)); reflexivity.
Qed.

Lemma ring_edges_endpoints (ps : list pt) (a b : pt) :
  In (a, b) (ring_edges ps) -> In a ps /\ In b ps.
Proof.
  rewrite ring_edges_eq.
  destruct (Nat.ltb_spec (length ps) 3) as [H3|H3]; [intros []|].
  assert (Hne : ps <> []) by (intros ->; cbn in H3; lia).
  intros H. apply in_app_or in H. destruct H as [H|H].
  - apply path_segs_endpoints; assumption.
  - destruct (pt_eqb (last ps pt0) (hd pt0 ps)); [destruct H|].
    destruct H as [H|[]]. inversion H; subst.
    split; [apply last_In|apply hd_In]; assumption.
Qed.

Lemma pt_eqb_inj (g : pt -> pt) : (forall p q, g p = g q -> p = q) ->
  forall p q, pt_eqb (g p) (g q) = pt_eqb p q.
Proof. intros Hg p q. apply Bool.eq_true_iff_eq. rewrite !pt_eqb_eq. split; [apply Hg|congruence]. Qed.

Lemma pt_eqb_invol (g : pt -> pt) : (forall p, g (g p) = p) ->
  forall p q, pt_eqb (g p) (g q) = pt_eqb p q.
Proof. intros Hg. apply pt_eqb_inj. intros p q H. rewrite <- (Hg p), H. apply Hg. Qed.

(* a map of the plane that keeps points apart commutes with the segment rule *)
Section PtMap.
Variable g : pt -> pt.
Hypothesis g_eqb : forall p q, pt_eqb (g p) (g q) = pt_eqb p q.

Definition mapseg (s : seg) : seg := (g (fst s), g (snd s)).

Lemma path_segs_map ps : path_segs (map g ps) = map mapseg (path_segs ps).
Proof.
  induction ps as [|a r IH]; [reflexivity|]. destruct r as [|b r']; [reflexivity|].
  change (path_segs (g a :: map g (b :: r')) = mapseg (a, b) :: map mapseg (path_segs (b :: r'))).
  rewrite <- IH. reflexivity.
Qed.

Lemma last_map ps : ps <> [] -> last (map g ps) pt0 = g (last ps pt0).
Proof.
  induction ps as [|a [|b r] IH]; intros H; [congruence|reflexivity|].
  change (last (map g (a :: b :: r)) pt0) with (last (map g (b :: r)) pt0).
  rewrite IH by discriminate. reflexivity.
Qed.

Lemma ring_edges_map ps : ring_edges (map g ps) = map mapseg (ring_edges ps).
Proof.
  rewrite !ring_edges_eq, map_length.
  destruct (length ps <? 3)%nat; [reflexivity|].
  rewrite map_app, path_segs_map. f_equal.
  destruct ps as [|a r]; [reflexivity|].
  rewrite last_map by discriminate. cbn [map hd]. rewrite g_eqb.
  destruct (pt_eqb (last (a :: r) pt0) a); reflexivity.
Qed.

(* ... and with the two halves of the point-in-ring specification, when it
   preserves the segment predicates at the query point *)
Lemma on_boundaryb_map sgs p :
  (forall s, on_segb (mapseg s) (g p) = on_segb s p) ->
  on_boundaryb (map mapseg sgs) (g p) = on_boundaryb sgs p.
Proof.
  intros H. unfold on_boundaryb. apply existsb_map_ext. exact H.
Qed.

Lemma parityb_map sgs p :
  (forall s, crossesb (mapseg s) (g p) = crossesb s p) ->
  parityb (map mapseg sgs) (g p) = parityb sgs p.
Proof.
  intros H. rewrite !parityb_xfold, xfold_map. apply xfold_ext. intros s _. apply H.
Qed.

End PtMap.

(* a polygon with holes whose rings are replaced one by one (mapped, or re-encoded), q standing for p:
   membership follows membership in the exterior and strict membership in every hole *)
Lemma in_polyb_rings (F : list pt -> list pt) (q p : pt) (e : list pt) (hs : list (list pt)) :
  in_ringb (ring_edges (F e)) q = in_ringb (ring_edges e) p ->
  (forall h, In h hs -> strictly_in_ringb (ring_edges (F h)) q = strictly_in_ringb (ring_edges h) p) ->
  in_polyb (ring_edges (F e)) (map ring_edges (map F hs)) q = in_polyb (ring_edges e) (map ring_edges hs) p.
Proof.
  intros He Hh. unfold in_polyb. rewrite He, !map_map. f_equal.
  induction hs as [|h hs IH]; [reflexivity|]. cbn [map forallb].
  rewrite (Hh h (or_introl eq_refl)), IH; [reflexivity|]. intros h' Hin. apply Hh. right. exact Hin.
Qed.

Theorem outside_bbox_no_hit (ps : list pt) (p : pt) :
  rect_contains_point (bbox_spec ps) p = false ->
  on_boundaryb (ring_edges ps) p = false /\ parityb (ring_edges ps) p = false.
Proof.
  intros Hout.
  assert (HB : forall a b, In (a, b) (ring_edges ps) ->
                 inbox (bbox_spec ps) a /\ inbox (bbox_spec ps) b).
  { intros a b H. destruct (ring_edges_endpoints ps a b H) as [Ha Hb].
    split; [apply (bbox_spec_tight ps a Ha)|apply (bbox_spec_tight ps b Hb)]. }
  assert (Hnb : ~ inbox (bbox_spec ps) p).
  { rewrite <- rect_contains_point_inbox. congruence. }
  set (R := bbox_spec ps) in *. clearbody R.
  split.
  - unfold on_boundaryb. apply existsb_false_iff. intros [a b] Hin.
    destruct (HB a b Hin) as [Ha Hb].
    destruct (on_segb (a, b) p) eqn:E; [|reflexivity].
    exfalso. apply Hnb. apply (on_segb_inbox R a b p Ha Hb E).
  - rewrite parityb_xfold.
    unfold inbox in *.
    destruct (Z.lt_ge_cases (px p) (px (fst R))) as [Hl|Hl].
    + (* left of the box: crossed iff spanning; the ring closes *)
      rewrite (xfold_ext _ (fun s : seg => xorb (above p (fst s)) (above p (snd s)))).
      * apply ring_edges_telescope.
      * intros [a b] Hin. destruct (HB a b Hin) as [Ha Hb]. cbn [fst snd].
        apply left_cross_iff_spans; lia.
    + apply xfold_all_false. intros [a b] Hin. destruct (HB a b Hin) as [Ha Hb].
      destruct (Z.lt_ge_cases (px (snd R)) (px p)) as [Hr|Hr].
      * (* right of the box *) apply right_no_cross; lia.
      * (* below or above the box: no edge spans *)
        apply not_spans_no_cross. unfold above.
        destruct (Z.ltb_spec (py p) (py a)), (Z.ltb_spec (py p) (py b)); try reflexivity; lia.
Qed.

Lemma closed_series_empty (ps : list pt) :
  series_empty {| closed := true; pts := ps |} = (length ps <? 3)%nat.
Proof.
  unfold series_empty, npoints. cbn [closed pts andb].
  destruct (Nat.ltb_spec (length ps) 3); destruct (Nat.ltb_spec (length ps) 2);
    cbn [orb]; try reflexivity; lia.
Qed.

Theorem ring_contains_point_spec (ps : list pt) (p : pt) (allow : bool) :
  rcp_hit (RS {| closed := true; pts := ps |}) p allow =
    if on_boundaryb (ring_edges ps) p then allow else parityb (ring_edges ps) p.
Proof.
  rewrite rcp_hit_gen. unfold ring_rect, ring_segments. rewrite RS_rect, RS_segs.
  fold (ring_edges ps).
  destruct (Nat.ltb_spec (length ps) 3) as [H3|H3].
  - (* empty ring: no segment at all *)
    rewrite (ring_edges_short ps H3). cbn [on_boundaryb parityb existsb fold_right].
    destruct (rect_contains_point _ p); reflexivity.
  - rewrite series_rect_spec.
    + cbn [pts].
      destruct (rect_contains_point (bbox_spec ps) p) eqn:E; [reflexivity|].
      destruct (outside_bbox_no_hit ps p E) as [-> ->]. reflexivity.
    + rewrite closed_series_empty. apply Nat.ltb_ge. exact H3.
Qed.

Theorem poly_contains_point_spec (e : list pt) (hs : list (list pt)) (p : pt) :
  poly_contains_point
    {| exterior := RS {| closed := true; pts := e |};
       holes := map (fun h => RS {| closed := true; pts := h |}) hs |} p
  = in_polyb (ring_edges e) (map ring_edges hs) p.
Proof.
  unfold poly_contains_point, in_polyb, in_ringb, strictly_in_ringb. cbn [exterior holes].
  rewrite ring_contains_point_spec.
  assert (HH : negb (existsb (fun h => rcp_hit h p false)
                       (map (fun h => RS {| closed := true; pts := h |}) hs)) =
               forallb (fun h => negb (negb (on_boundaryb h p) && parityb h p)) (map ring_edges hs)).
  { induction hs as [|h hs IH]; cbn [map existsb forallb]; [reflexivity|].
    rewrite negb_orb, IH. rewrite ring_contains_point_spec.
    destruct (on_boundaryb (ring_edges h) p); reflexivity. }
  rewrite HH.
  destruct (on_boundaryb (ring_edges e) p); cbn [orb negb andb]; [reflexivity|].
  destruct (parityb (ring_edges e) p); reflexivity.
Qed.

Lemma rect_interior_parity (mnx mny mxx mxy x y : Z) :
  mnx < x < mxx -> mny < y < mxy ->
  parityb (rect_segments ((mnx, mny), (mxx, mxy))) (x, y) = true.
Proof.
  intros Hx Hy. unfold parityb, rect_segments. cbn [fold_right].
  assert (E1 : crossesb ((mnx, mny), (mxx, mny)) (x, y) = false).
  { apply not_true_is_false. rewrite crossesb_iff. unfold crosses, cross, px, py. cbn [fst snd]. lia. }
  assert (E2 : crossesb ((mxx, mny), (mxx, mxy)) (x, y) = true).
  { rewrite crossesb_iff. unfold crosses, cross, px, py. cbn [fst snd]. left. split; [lia|]. nia. }
  assert (E3 : crossesb ((mxx, mxy), (mnx, mxy)) (x, y) = false).
  { apply not_true_is_false. rewrite crossesb_iff. unfold crosses, cross, px, py. cbn [fst snd]. lia. }
  assert (E4 : crossesb ((mnx, mxy), (mnx, mny)) (x, y) = false).
  { apply not_true_is_false. rewrite crossesb_iff. unfold crosses, cross, px, py. cbn [fst snd].
    intros [[H _]|[_ H]]; [lia|nia]. }
  rewrite E1, E2, E3, E4. reflexivity.
Qed.

Lemma rect_sides_boundary (mnx mny mxx mxy x y : Z) :
  mnx <= x <= mxx -> mny <= y <= mxy ->
  (x = mnx \/ x = mxx \/ y = mny \/ y = mxy) ->
  on_boundaryb (rect_segments ((mnx, mny), (mxx, mxy))) (x, y) = true.
Proof.
  intros Hx Hy H. apply on_boundaryb_iff. unfold on_boundary, rect_segments.
  (* the side the point is on *)
  destruct H as [H|[H|[H|H]]]; subst;
    [ exists ((mnx, mxy), (mnx, mny)) | exists ((mxx, mny), (mxx, mxy))
    | exists ((mnx, mny), (mxx, mny)) | exists ((mxx, mxy), (mnx, mxy)) ].
  all: split; [cbn; tauto|]; unfold on_seg, cross, px, py; cbn [fst snd]; lia.
Qed.

(* a Rect used as a ring answers as the closed box *)
Theorem rect_ring_pip (q : rect) (p : pt) :
  px (fst q) <= px (snd q) -> py (fst q) <= py (snd q) ->
  rcp_hit (RR q) p true = in_rectb q p.
Proof.
  intros Hqx Hqy. rewrite rcp_hit_gen.
  change (ring_rect (RR q)) with q. change (ring_segments (RR q)) with (rect_segments q).
  rewrite rect_contains_point_spec.
  destruct (in_rectb q p) eqn:E; [|reflexivity].
  destruct q as [[mnx mny] [mxx mxy]], p as [x y].
  unfold in_rectb, px, py in *. cbn [fst snd] in *.
  rewrite !andb_true_iff, !Z.leb_le in E. destruct E as [[[E1 E2] E3] E4].
  destruct (on_boundaryb _ _) eqn:B; [reflexivity|].
  (* off the four sides: strictly inside *)
  assert (N : ~ (x = mnx \/ x = mxx \/ y = mny \/ y = mxy)).
  { intros H. rewrite rect_sides_boundary in B by (lia || exact H). discriminate. }
  apply rect_interior_parity; lia.
Qed.

Print Assumptions pip_fold_spec.
Print Assumptions pip_fold_perm.
Print Assumptions strip_search_sound.
Print Assumptions outside_bbox_no_hit.
Print Assumptions ring_contains_point_spec.
Print Assumptions poly_contains_point_spec.
Print Assumptions rect_contains_point_spec.
Print Assumptions line_contains_point_spec.
Print Assumptions rect_ring_pip.
Print Assumptions parityb_odd.
Print Assumptions on_boundaryb_iff.
