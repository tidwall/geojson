(* ObjSelf.v — property C09: a non-empty object intersects itself (rectangles
   well-formed; polygons without holes — with holes the answer depends on the
   holes lying inside the exterior, which no hypothesis here provides). *)
From GJ Require Import Base Ring RingSpec PairSpec Pairs PairProofs IntersectsProofs PipProofs Obj ObjProofs
  CoversBoxes Jordan JordanRing ObjSym.
Import ListNotations.
Open Scope Z_scope.

(* rectangles min <= max; polygons without holes *)
Definition s_wf (s : shape) : Prop :=
  match s with SRect r => rect_wf r | SPoly _ hs => hs = [] | _ => True end.

(* every vertex of a ring of three points or more lies on an edge of the ring *)
Lemma vertex_on_boundaryb (e : list pt) (v : pt) : (3 <= length e)%nat -> In v e -> on_boundaryb (ring_edges e) v = true.
Proof.
  intros H3 Hv. destruct (ring_edges_closed_path' e H3) as (l & Hl & Hsub & _).
  destruct (ring_edges_closed_path e H3) as (qs & Hqs & _ & Hq3).
  assert (L2 : (2 <= length l)%nat).
  { destruct l as [|a [|b r]]; cbn [length]; try lia.
    - exfalso. exact (Hsub v Hv).
    - exfalso. rewrite Hqs in Hl. destruct qs as [|x [|y [|z t]]]; cbn in Hq3; try lia; discriminate. }
  destruct (line_point_is_end l v L2 (Hsub v Hv)) as (sg & Hsg & Hend).
  apply on_boundaryb_iff. exists sg. rewrite Hl. split; [exact Hsg|].
  destruct sg as [a b]. cbn [fst snd] in Hend. destruct Hend as [->| ->]; [apply on_seg_left|apply on_seg_right].
Qed.

Lemma vertex_on_boundary (e : list pt) (v : pt) : (3 <= length e)%nat -> In v e -> in_ringb (ring_edges e) v = true.
Proof. intros H3 Hv. unfold in_ringb. rewrite (vertex_on_boundaryb e v H3 Hv). reflexivity. Qed.

Lemma vertex_hit (e : list pt) (v : pt) : (3 <= length e)%nat -> In v e -> rcp_hit (Rg e) v true = true.
Proof. intros H3 Hv. unfold Rg. rewrite rcp_hit_in_ringb. apply vertex_on_boundary; assumption. Qed.

(* a non-empty shape meets itself *)
Theorem g_intersects_self (s : shape) : s_wf s -> s_empty s = false ->
  g_intersects (g_of_shape s) (g_of_shape s) = true.
Proof.
  destruct s as [p|r|ps|e hs]; rewrite ?g_of_line, ?g_of_poly; cbn [s_wf s_empty g_of_shape g_intersects]; intros Hw Hne.
  - apply pt_eqb_refl.
  - rect_lia.
  - apply Nat.ltb_ge in Hne. apply line_intersects_line_spec.
    split; [exact Hne|]. split; [exact Hne|].
    destruct ps as [|x [|y l]]; cbn in Hne; try lia.
    exists (x, y), (x, y). split; [left; reflexivity|]. split; [left; reflexivity|].
    rewrite seg_meet_unfold. left. apply on_seg_left.
  - subst hs. apply Nat.ltb_ge in Hne. apply poly_intersects_poly_noholes.
    split; [exact Hne|]. split; [exact Hne|].
    destruct e as [|x e']; [cbn in Hne; lia|].
    exists 1, x. split; [lia|]. rewrite edges_at_1. split; apply (vertex_on_boundary _ x Hne); left; reflexivity.
Qed.

Theorem o_intersects_self (a : obj) : obj_wf a -> o_empty a = false ->
  (forall x, In x (sleaves a) -> s_wf x) -> o_intersects a a = true.
Proof.
  intros Hw Hne Hs. destruct (proj1 (nonempty_leaf_iff a) Hne) as (x & Hx & Nx).
  apply (o_intersects_flat a a Hw Hw). exists x, x. split; [exact Hx|]. split; [exact Hx|].
  apply g_intersects_self; [apply Hs; exact Hx|exact Nx].
Qed.

Print Assumptions o_intersects_self.
