(* LineSound.v — property C03: Line.ContainsLine (after the repair) is sound as a point-set statement:
   when the coverage walk accepts a segment, every rational point of the segment lies on a segment
   of the receiver. *)
From GJ Require Import LineProofs Base KernelSpec Ring IntersectsProofs Invariance AffinePairs JordanQ IntersectsQ.
Import ListNotations.
Open Scope Z_scope.

(* the stretch of the line AB between a point C of a collinear segment S and an end E of S lies on S *)
Lemma stretch_on_segment (A B S1 S2 C E P : pt) :
  A <> B -> S1 <> S2 -> cross S1 S2 A = 0 -> cross S1 S2 B = 0 ->
  on_seg (S1, S2) C -> (E = S1 \/ E = S2) -> cross A B P = 0 ->
  dotp A B C <= dotp A B P <= dotp A B E -> on_seg (S1, S2) P.
Proof.
  intros Hab Hs HA HB HC HE HP Hd.
  assert (HE' : on_seg (S1, S2) E) by (destruct HE as [-> | ->]; [apply on_seg_left|apply on_seg_right]).
  (* C and E are on the line of S, which is the line AB, and P lies between them *)
  apply (on_seg_convex S1 S2 C E P HC HE'). apply (between_on_seg A B C E P Hab); [| |exact HP|exact Hd].
  - apply (on_line_trans S1 S2 A B C Hs HA HB (proj1 HC)).
  - apply (on_line_trans S1 S2 A B E Hs HA HB (proj1 HE')).
Qed.

Lemma sc_xy k p : sc k p = (k * px p, k * py p).
Proof. destruct p as [x y]. unfold sc, aff, px, py. cbn [fst snd]. f_equal; lia. Qed.

Lemma cross_sc k a b p : cross (sc k a) (sc k b) (sc k p) = k * k * cross a b p.
Proof. apply cross_aff. Qed.

Lemma dotp_sc k a b p : dotp (sc k a) (sc k b) (sc k p) = k * k * dotp a b p.
Proof. apply dotp_aff. Qed.

Lemma sc_inj k a b : 0 < k -> sc k a = sc k b -> a = b.
Proof. intros Hk. apply (aff_inj k 0 0 Hk). Qed.

(* along the segment the projection runs from 0 to |AB|^2 *)
Lemma on_seg_dot_range (A B P : pt) : on_seg (A, B) P -> 0 <= dotp A B P <= dotp A B B.
Proof.
  intros H. pose proof (dot_between_ends A B A B P H). assert (dotp A B A = 0) by (unfold dotp; lia).
  assert (0 <= dotp A B B) by (apply Z.add_nonneg_nonneg; apply Z.square_nonneg). lia.
Qed.

Definition covered (l : rng) (k : Z) (P : pt) : Prop := exists s, In s (ring_segments l) /\ on_seg (scs k s) P.

Section Walk.
Variables (l : rng) (a b : pt).
Hypothesis Hab : pt_eqb a b = false.

(* the walk is at its own coordinate, and what lies before it is covered *)
Definition inv (cur : pt) (curd : Z) : Prop :=
  curd = dotp a b cur /\
  forall k P, 0 < k -> on_seg (sc k a, sc k b) P -> dotp (sc k a) (sc k b) P < k * k * curd -> covered l k P.

(* the stretch that a pass with progress adds lies on the source segment of the pass *)
Lemma stretch_covered (cur : pt) (curd : Z) (r : pt * Z) (k : Z) (P : pt) :
  0 < k -> curd = dotp a b cur -> step_src l a b cur r -> curd < snd r ->
  on_seg (sc k a, sc k b) P -> k * k * curd <= dotp (sc k a) (sc k b) P <= k * k * snd r -> covered l k P.
Proof.
  intros Hk Hcd Hsrc Hprog HP Hd.
  destruct (src_line l a b cur curd r Hcd Hsrc Hprog) as ([s1 s2] & Hs & Hne & Ca & Cb & Hon & Hend & Hbd & _). cbn [fst snd] in *.
  exists (s1, s2). split; [exact Hs|]. change (scs k (s1, s2)) with (sc k s1, sc k s2).
  apply (stretch_on_segment (sc k a) (sc k b) (sc k s1) (sc k s2) (sc k cur) (sc k (fst r)) P).
  - intros E. apply (pt_eqb_neq a b Hab), (sc_inj k a b Hk E).
  - intros E. apply Hne, (sc_inj k s1 s2 Hk E).
  - rewrite cross_sc, Ca. lia.
  - rewrite cross_sc, Cb. lia.
  - apply (on_seg_sc k (s1, s2) cur Hk Hon).
  - destruct Hend as [-> | ->]; [left|right]; reflexivity.
  - exact (proj1 HP).
  - rewrite !dotp_sc, <- Hcd, <- Hbd. exact Hd.
Qed.

Lemma walk_sound : forall fuel cur curd, inv cur curd -> curd < dotp a b b -> covers_walk fuel l (a, b) cur curd = Some true ->
  forall k P, 0 < k -> on_seg (sc k a, sc k b) P -> covered l k P.
Proof.
  induction fuel as [|f IH]; intros cur curd (Hcd & Hbefore) Hlt H k P Hk HP; [discriminate|].
  destruct (covers_walk_true f l a b cur curd Hlt H) as (r & Hsrc & Hprog & Hnext).
  assert (Step : forall k P, 0 < k -> on_seg (sc k a, sc k b) P -> dotp (sc k a) (sc k b) P <= k * k * snd r -> covered l k P).
  { intros k' P' Hk' HP' Hd'.
    destruct (Z.lt_ge_cases (dotp (sc k' a) (sc k' b) P') (k' * k' * curd)) as [Lt|Ge]; [apply (Hbefore k' P' Hk' HP' Lt)|].
    apply (stretch_covered cur curd r k' P' Hk' Hcd Hsrc Hprog HP'). lia. }
  destruct Hnext as [L|[L H']].
  - apply (Step k P Hk HP). destruct (on_seg_dot_range _ _ _ HP) as [_ D1]. rewrite dotp_sc in D1.
    assert (0 <= k * k) by nia. nia.
  - destruct (src_line l a b cur curd r Hcd Hsrc Hprog) as (_ & _ & _ & _ & _ & _ & _ & Hbd & _).
    apply (IH (fst r) (snd r)); [|exact L|exact H'|exact Hk|exact HP].
    split; [exact Hbd|]. intros k' P' Hk' HP' Hd'. apply (Step k' P' Hk' HP'). lia.
Qed.
End Walk.

Theorem line_covers_segment_sound (l : rng) (a b : pt) : line_covers_segment l (a, b) = Some true ->
  forall k P, 0 < k -> on_seg (sc k a, sc k b) P -> covered l k P.
Proof.
  destruct (pt_eqb a b) eqn:E.
  - apply pt_eqb_eq in E. subst b. intros H k P Hk HP. apply covers_point_true in H. destruct H as (s & Hin & Hon).
    exists s. split; [exact Hin|].
    rewrite (on_seg_point _ _ HP). apply (on_seg_sc k s a Hk Hon).
  - rewrite (covers_first_pass l a b E). intros H. refine (walk_sound l a b E _ a 0 _ (dot_pos a b E) H).
    split; [unfold dotp; lia|]. intros k P Hk HP Hd. destruct (on_seg_dot_range _ _ _ HP) as [D0 _]. lia.
Qed.

(* every rational point of every segment of the argument lies on a segment of the receiver *)
Definition line_covered_by (l o : rng) : Prop :=
  forall sg, In sg (ring_segments o) -> forall k P, 0 < k -> on_seg (sc k (fst sg), sc k (snd sg)) P -> covered l k P.

Theorem line_contains_line_sound (l o : rng) : line_contains_line l o = Some true ->
  ring_empty l = false /\ ring_empty o = false /\ line_covered_by l o.
Proof.
  intros H. apply line_contains_line_true in H. destruct H as (El & Eo & H). split; [exact El|]. split; [exact Eo|].
  intros [a b] Hsg. apply (line_covers_segment_sound l a b), H, Hsg.
Qed.

Print Assumptions line_contains_line_sound.
