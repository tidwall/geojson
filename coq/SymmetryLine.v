(* SymmetryLine.v — property C12: Line.ContainsLine is invariant under the eight symmetries of the
   square (x -> -x, y -> -y, x <-> y and their compositions), through the point-set exactness of
   LineComplete.v: "every rational point of the argument lies on a segment of the receiver" is
   preserved by any map that commutes with scaling and preserves "on the segment". *)
From GJ Require Import Base KernelSpec Ring PairProofs LineProofs Invariance JordanQ Mirror MirrorY Symmetry
  LineSound LineComplete.
Open Scope Z_scope.

(* two answers that are never "out of fuel" and are "yes" together are the same answer *)
Lemma answers_agree (x y : option bool) : x <> None -> y <> None -> (x = Some true <-> y = Some true) -> x = y.
Proof. destruct x as [[|]|], y as [[|]|]; intros Hx Hy [H1 H2]; try congruence; [symmetry; auto|auto]. Qed.

Section TransferLine.
Variable tau : pt -> pt.
Hypothesis tau_tau : forall p, tau (tau p) = p.
Hypothesis tau_sc : forall k p, sc k (tau p) = tau (sc k p).
Hypothesis tau_on : forall s p, on_segb (taus tau s) (tau p) = on_segb s p.

Lemma Lr_segs_tau ps : ring_segments (Lr (map tau ps)) = map (taus tau) (ring_segments (Lr ps)).
Proof. rewrite !Lr_segs. apply path_segs_tau. Qed.

Lemma Lr_empty_tau ps : ring_empty (Lr (map tau ps)) = ring_empty (Lr ps).
Proof. rewrite !Lr_empty, map_length. reflexivity. Qed.

Lemma scs_taus k s : scs k (taus tau s) = taus tau (scs k s).
Proof. destruct s as [s1 s2]. exact (f_equal2 pair (tau_sc k s1) (tau_sc k s2)). Qed.

Lemma covered_tau_1 ps k P : covered (Lr ps) k P -> covered (Lr (map tau ps)) k (tau P).
Proof.
  intros (s & Hs & Hon). exists (taus tau s). split; [rewrite Lr_segs_tau; apply in_map; exact Hs|].
  rewrite scs_taus. destruct (scs k s) as [x y]. apply (on_seg_tau tau tau_on). exact Hon.
Qed.

Lemma line_covered_by_tau_1 ps qs : line_covered_by (Lr ps) (Lr qs) -> line_covered_by (Lr (map tau ps)) (Lr (map tau qs)).
Proof.
  intros H sg Hsg k P Hk HP. rewrite Lr_segs_tau in Hsg. apply in_map_iff in Hsg. destruct Hsg as ([c d] & <- & Hcd).
  cbn [taus fst snd] in HP. rewrite !tau_sc in HP.
  assert (HP' : on_seg (tau (sc k c), tau (sc k d)) (tau (tau P))) by (rewrite tau_tau; exact HP).
  apply (proj1 (on_seg_tau tau tau_on (sc k c) (sc k d) (tau P))) in HP'.
  pose proof (H (c, d) Hcd k (tau P) Hk HP') as C. apply covered_tau_1 in C. rewrite tau_tau in C. exact C.
Qed.

Theorem line_contains_line_tau (ps qs : list pt) :
  line_contains_line (Lr (map tau ps)) (Lr (map tau qs)) = line_contains_line (Lr ps) (Lr qs).
Proof.
  destruct (ring_empty (Lr ps)) eqn:Ep; [unfold line_contains_line; rewrite Lr_empty_tau, Ep; reflexivity|].
  destruct (ring_empty (Lr qs)) eqn:Eq; [unfold line_contains_line; rewrite !Lr_empty_tau, Ep, Eq; reflexivity|].
  apply answers_agree; [apply line_contains_line_total..|].
  rewrite !line_contains_line_exact by (rewrite ?Lr_empty_tau; assumption).
  split; [|apply line_covered_by_tau_1]. intros H. apply line_covered_by_tau_1 in H.
  rewrite !(map_tau_tau tau tau_tau) in H. exact H.
Qed.
End TransferLine.

Definition line_contains_line_my := line_contains_line_tau my my_my sc_my on_segb_my.
Definition line_contains_line_tr := line_contains_line_tau tr tr_tr sc_tr on_segb_tr.
Definition line_contains_line_mx := line_contains_line_tau mir mir_mir sc_mir on_segb_mir.

Print Assumptions line_contains_line_mx.
