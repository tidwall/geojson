(* JordanRect.v — property C02: a Rect used as a ring (rect.go implements the
   Series interface) is the closed series of its five corner points, so the
   point-set theorems of JordanQ.v / JordanRing.v hold for Rect operands:
   rect x line string and rect x polygon-without-holes intersect exactly when
   the closed box and the other closed set share a rational point.
   At the end, property C09: A.Intersects(B) = B.Intersects(A) at the Geometry
   interface for all sixteen kind pairs (g_intersects_sym_all; g_intersects_sym
   is the form with the hypothesis no_hole_pair that C09 states). *)
From GJ Require Import Base KernelSpec Series SeriesSpec Ring RingSpec SeriesProofs PipProofs
  PairProofs Invariance Jordan JordanQ JordanRing.
Import ListNotations.
Local Open Scope Z_scope.

Lemma bbox_rect_points (q : rect) : rect_wf q -> bbox_spec (rect_points q) = q.
Proof.
  destruct q as [[x0 y0] [x1 y1]]. unfold rect_wf, px, py. cbn [fst snd]. intros [W1 W2].
  unfold bbox_spec, rect_points, min_list, max_list, px, py. cbn [map fold_left fst snd].
  apply f_equal2; apply f_equal2; lia.
Qed.

Theorem RR_as_RS (q : rect) : rect_wf q -> RR q = RS {| closed := true; pts := rect_points q |}.
Proof.
  intros Hw. unfold RR, RS, process_points. cbn [pts closed]. rewrite points_rect_tight, (bbox_rect_points q Hw).
  destruct q as [[a b] [c d]]. unfold rect_wf, px, py in Hw. cbn [fst snd] in Hw. destruct Hw as [Hx Hy].
  unfold rect_points, rect_segments, series_empty, npoints, segments_spec, turn_count.
  cbn [pts closed length Nat.ltb Nat.leb andb orb Nat.sub nthp nth map seq tri_at Nat.eqb Nat.add last hd path_segs].
  rewrite pt_eqb_refl. cbn [andb Nat.sub map seq tri_at nthp nth Nat.eqb Nat.add zcross cw_term fold_left px py fst snd].
  f_equal.
  - replace ((c - a) * (d - b) - (b - b) * (c - c)) with ((c - a) * (d - b)) by ring.
    replace ((c - c) * (d - d) - (d - b) * (a - c)) with ((c - a) * (d - b)) by ring.
    replace ((a - c) * (b - d) - (d - d) * (a - a)) with ((c - a) * (d - b)) by ring.
    replace ((a - a) * (b - b) - (b - d) * (c - a)) with ((c - a) * (d - b)) by ring.
    assert (Hz : 0 <= (c - a) * (d - b)) by nia. set (z := (c - a) * (d - b)) in *. clearbody z.
    unfold turn_step. cbn [Z.eqb].
    destruct (Z.ltb_spec z 0); [lia|]. destruct (Z.ltb_spec 0 z); cbn [Z.eqb fst negb]; reflexivity.
  - symmetry. apply Z.ltb_ge. nia.
Qed.

Definition scr (k : Z) (q : rect) : rect := (sc k (fst q), sc k (snd q)).

Lemma rect_points_sc k q : map (sc k) (rect_points q) = rect_points (scr k q).
Proof. destruct q as [[a b] [c d]]. reflexivity. Qed.

Lemma scr_wf k q : 0 < k -> rect_wf q -> rect_wf (scr k q).
Proof.
  destruct q as [[a b] [c d]]. unfold rect_wf, scr, sc, aff, px, py. cbn [fst snd]. intros Hk [H1 H2]. nia.
Qed.

Lemma scr_scr j k q : scr j (scr k q) = scr (j * k) q.
Proof. unfold scr. cbn [fst snd]. rewrite !sc_sc. reflexivity. Qed.

Lemma in_rectb_scr k q p : 0 < k -> in_rectb q p = true -> in_rectb (scr k q) (sc k p) = true.
Proof.
  rewrite !in_rectb_inbox. destruct q as [[a b] [c d]], p as [x y]. unfold inbox, scr, sc, aff, px, py. cbn [fst snd]. nia.
Qed.

Lemma in_ringb_rect (q : rect) (p : pt) : rect_wf q -> in_ringb (ring_edges (rect_points q)) p = in_rectb q p.
Proof.
  intros Hw. rewrite <- rcp_hit_in_ringb, <- (RR_as_RS q Hw). destruct Hw as [H1 H2]. apply rect_ring_pip; assumption.
Qed.

Lemma in_ringb_rect_at k (q : rect) (P : pt) : 0 < k -> rect_wf q ->
  in_ringb (edges_at k (rect_points q)) P = in_rectb (scr k q) P.
Proof.
  intros Hk Hw. unfold edges_at. rewrite rect_points_sc. apply in_ringb_rect. apply scr_wf; assumption.
Qed.

(* Rect.IntersectsLine / Line.IntersectsRect *)
Theorem rect_intersects_line_pointset (q : rect) (qs : list pt) : rect_wf q ->
  (rect_intersects_line q (Lr qs) = true <->
   (2 <= length qs)%nat /\
   exists sg k P, In sg (path_segs qs) /\ 0 < k /\ on_seg (sc k (fst sg), sc k (snd sg)) P /\ in_rectb (scr k q) P = true).
Proof.
  intros Hw. unfold rect_intersects_line, Lr. rewrite (RR_as_RS q Hw), ring_intersects_line_pointset.
  assert (L5 : (3 <= length (rect_points q))%nat) by (destruct q as [[a b] [c d]]; cbn; lia).
  split.
  - intros (_ & H2 & sg & Hin & k & P & Hk & Hon & Hr). split; [exact H2|]. exists sg, k, P.
    split; [exact Hin|]. split; [exact Hk|]. split; [exact Hon|].
    fold (edges_at k (rect_points q)) in Hr. rewrite in_ringb_rect_at in Hr by assumption. exact Hr.
  - intros (H2 & sg & k & P & Hin & Hk & Hon & Hr). split; [exact L5|]. split; [exact H2|]. exists sg. split; [exact Hin|].
    exists k, P. split; [exact Hk|]. split; [exact Hon|]. fold (edges_at k (rect_points q)). rewrite in_ringb_rect_at by assumption. exact Hr.
Qed.

(* Poly.IntersectsRect / Rect.IntersectsPoly, polygon without holes *)
Theorem poly_intersects_rect_noholes (e : list pt) (q : rect) : rect_wf q ->
  (poly_intersects_rect (Pg e []) q = true <->
   (3 <= length e)%nat /\
   exists k P, 0 < k /\ in_ringb (edges_at k e) P = true /\ in_rectb (scr k q) P = true).
Proof.
  intros Hw. unfold poly_intersects_rect, rect_poly, Pg. cbn [map]. rewrite poly_intersects_poly_bare.
  unfold Rg. rewrite (RR_as_RS q Hw), ring_intersects_ring_pointset.
  assert (L5 : (3 <= length (rect_points q))%nat) by (destruct q as [[a b] [c d]]; cbn; lia).
  split.
  - intros (_ & H3 & k & P & Hk & I1 & I2). split; [exact H3|]. exists k, P. split; [exact Hk|]. split; [exact I2|].
    rewrite in_ringb_rect_at in I1 by assumption. exact I1.
  - intros (H3 & k & P & Hk & I1 & I2). split; [exact L5|]. split; [exact H3|]. exists k, P. split; [exact Hk|].
    split; [rewrite in_ringb_rect_at by assumption; exact I2|exact I1].
Qed.

Print Assumptions RR_as_RS.
Print Assumptions rect_intersects_line_pointset.
Print Assumptions poly_intersects_rect_noholes.

(* the Geometry interface: Intersects does not depend on the receiver *)
From GJ Require Import PairSpec Pairs.

Definition no_hole_pair (a b : shape) : Prop :=
  match a, b with
  | SPoly _ ha, SPoly _ hb => ha = [] /\ hb = []
  | _, _ => True
  end.

Theorem g_intersects_sym_all (a b : shape) :
  g_intersects (g_of_shape a) (g_of_shape b) = g_intersects (g_of_shape b) (g_of_shape a).
Proof.
  destruct a as [p|r|ps|e hs], b as [p'|r'|ps'|e' hs']; cbn [g_of_shape g_intersects]; try reflexivity.
  - apply pt_eqb_sym.
  - apply rect_intersects_rect_sym.
  - apply line_intersects_line_sym.
  - apply (poly_intersects_poly_sym e hs e' hs').
Qed.

Theorem g_intersects_sym (a b : shape) : no_hole_pair a b ->
  g_intersects (g_of_shape a) (g_of_shape b) = g_intersects (g_of_shape b) (g_of_shape a).
Proof. intros _. apply g_intersects_sym_all. Qed.

Print Assumptions g_intersects_sym.
