(* LineComplete.v — property C03: Line.ContainsLine (after the repair) is complete: if every rational
   point of a segment lies on a segment of the receiver, the coverage walk accepts it.  The heart is a
   counting argument: just beyond the current point there are more rational points than the receiver
   has segments; a segment that is not collinear with the covered one carries at most one of them, and
   a collinear one that carries any of them reaches back to the current point and beyond it.
   With LineSound.v this gives line_contains_line_exact, and line_contains_flat_rect_exact for a
   rectangle without area. *)
From GJ Require Import Base KernelSpec Ring PairProofs KernelProofs IntersectsProofs RaycastProofs
  LineProofs Invariance JordanQ LineSound.
Import ListNotations.
Open Scope Z_scope.

(* more pigeons than holes: L are the holes, R j s says that pigeon j sits in hole s *)
Lemma pigeon {A} (dec : forall x y : A, {x = y} + {x <> y}) (L : list A) (R : Z -> A -> Prop) :
  (forall j, 1 <= j <= Z.of_nat (length L) + 1 -> exists s, In s L /\ R j s) ->
  (forall s i j, 1 <= i <= Z.of_nat (length L) + 1 -> 1 <= j <= Z.of_nat (length L) + 1 -> In s L -> R i s -> R j s -> i = j) ->
  False.
Proof.
  intros Pick Inj.
  assert (Build : forall m : nat, (m <= S (length L))%nat ->
            exists M : list A, length M = m /\ NoDup M /\ incl M L /\ forall s, In s M -> exists j, 1 <= j <= Z.of_nat m /\ R j s).
  { induction m as [|m IH]; intros Hm.
    - exists []. split; [reflexivity|]. split; [constructor|]. split; [intros x []|intros s []].
    - destruct (IH ltac:(lia)) as (M & Hlen & Hnd & Hinc & Hall).
      destruct (Pick (Z.of_nat (S m)) ltac:(lia)) as (s & Hs & Hon).
      destruct (in_dec dec s M) as [Hin|Hnin].
      + exfalso. destruct (Hall s Hin) as (j & Hj & Honj). pose proof (Inj s j (Z.of_nat (S m)) ltac:(lia) ltac:(lia) Hs Honj Hon). lia.
      + exists (s :: M). split; [cbn [length]; lia|]. split; [constructor; assumption|]. split.
        * intros x [<-|Hx]; [exact Hs|apply Hinc; exact Hx].
        * intros x [<-|Hx]; [exists (Z.of_nat (S m)); split; [lia|exact Hon]|].
          destruct (Hall x Hx) as (j & Hj & Honj). exists j. split; [lia|exact Honj]. }
  destruct (Build (S (length L)) (le_n _)) as (M & Hlen & Hnd & Hinc & _).
  pose proof (NoDup_incl_length Hnd Hinc). lia.
Qed.

(* a point of the line AB whose projection is within [0, |AB|^2] is on the segment *)
Lemma on_seg_of_dot (A B P : pt) : A <> B -> cross A B P = 0 -> 0 <= dotp A B P <= dotp A B B -> on_seg (A, B) P.
Proof.
  intros Hab Hc Hd. apply (between_on_seg A B A B P Hab); [unfold cross; lia|unfold cross; lia|exact Hc|].
  replace (dotp A B A) with 0 by (unfold dotp; lia). exact Hd.
Qed.

(* a point of the line of a segment S (S1 <> S2) whose projection on a parallel direction u lies between
   those of the ends is on S *)
Lemma on_seg_between_ends (A B S1 S2 P : pt) :
  A <> B -> S1 <> S2 -> cross S1 S2 A = 0 -> cross S1 S2 B = 0 -> cross A B P = 0 ->
  (dotp A B S1 <= dotp A B P <= dotp A B S2 \/ dotp A B S2 <= dotp A B P <= dotp A B S1) -> on_seg (S1, S2) P.
Proof.
  intros Hab Hs HA HB HP.
  assert (H1 : cross A B S1 = 0) by (apply (on_line_trans S1 S2 A B S1 Hs HA HB); unfold cross; lia).
  assert (H2 : cross A B S2 = 0) by (apply (on_line_trans S1 S2 A B S2 Hs HA HB); unfold cross; lia).
  intros [Hd|Hd]; [|apply on_seg_swap]; apply (between_on_seg A B _ _ P Hab); assumption.
Qed.

(* a receiver segment through cur, collinear with ab: the pass reaches the projections of both its ends *)
Lemma pass_reaches (l : rng) (a b cur : pt) (curd : Z) (s : seg) :
  In s (ring_segments l) -> cross (fst s) (snd s) a = 0 -> cross (fst s) (snd s) b = 0 -> on_seg s cur ->
  dotp a b (fst s) <= snd (covers_step l (a, b) cur curd) /\ dotp a b (snd s) <= snd (covers_step l (a, b) cur curd).
Proof.
  intros Hs Ca Cb Hon. destruct (search_on l s cur Hs Hon) as (i & Hin).
  rewrite covers_step_fold. apply (cfold_reach a b cur (s, i) _ Hin). cbn [fst].
  rewrite (proj2 (collinear_point_iff s a) Ca), (proj2 (collinear_point_iff s b) Cb). apply raycast_on_iff. exact Hon.
Qed.

Definition probe (k : Z) (a b cur : pt) (j : Z) : pt := (k * px cur + j * (px b - px a), k * py cur + j * (py b - py a)).

Lemma probe_cross k a b cur j : cross a b cur = 0 -> cross (sc k a) (sc k b) (probe k a b cur j) = 0.
Proof.
  intros Hcc. rewrite !sc_xy. destruct a as [ax ay], b as [bx by_], cur as [cx cy]. unfold probe, cross, px, py in *. cbn [fst snd] in *.
  replace ((k * bx - k * ax) * (k * cy + j * (by_ - ay) - k * ay) - (k * by_ - k * ay) * (k * cx + j * (bx - ax) - k * ax))
    with (k * k * ((bx - ax) * (cy - ay) - (by_ - ay) * (cx - ax))) by lia. rewrite Hcc. lia.
Qed.

Lemma probe_dot k a b cur j : dotp (sc k a) (sc k b) (probe k a b cur j) = k * k * dotp a b cur + j * k * dotp a b b.
Proof.
  rewrite !sc_xy. destruct a as [ax ay], b as [bx by_], cur as [cx cy]. unfold probe, dotp, px, py. cbn [fst snd]. lia.
Qed.

(* two different probes on one segment make it collinear with ab *)
Lemma two_probes_collinear k a b cur (s : seg) (i j : Z) : 0 < k -> a <> b -> cross a b cur = 0 -> i <> j ->
  on_seg (scs k s) (probe k a b cur i) -> on_seg (scs k s) (probe k a b cur j) ->
  cross (fst s) (snd s) a = 0 /\ cross (fst s) (snd s) b = 0.
Proof.
  intros Hk Hne Hcc Hij [Ci _] [Cj _]. destruct s as [s1 s2]. cbn [fst snd scs affs] in *. fold (sc k s1) (sc k s2) in Ci, Cj.
  assert (Hp : probe k a b cur i <> probe k a b cur j).
  { intros E. destruct (pt_ne_coord a b Hne); injection E; nia. }
  assert (Hab : sc k a <> sc k b) by (intros E; apply Hne, (sc_inj k a b Hk E)).
  pose proof (probe_cross k a b cur i Hcc) as Pi. pose proof (probe_cross k a b cur j Hcc) as Pj.
  (* the line of s holds two points of the line ab, so it holds a and b *)
  assert (On : forall c, cross (sc k a) (sc k b) (sc k c) = 0 -> cross s1 s2 c = 0).
  { intros c Hc. pose proof (line_through _ _ _ _ (sc k c) Hp Ci Cj (on_line_trans _ _ _ _ _ Hab Pi Pj Hc)) as H.
    rewrite cross_sc in H. nia. }
  split; apply On; unfold cross; lia.
Qed.

Section Progress.
Variables (l : rng) (a b cur : pt) (curd : Z).
Hypothesis Hab : pt_eqb a b = false.
Hypothesis Hcc : cross a b cur = 0.
Hypothesis Hcd : curd = dotp a b cur.
Hypothesis Hlo : 0 <= curd.
Hypothesis Hhi : curd < dotp a b b.
Hypothesis Hcov : forall k P, 0 < k -> on_seg (sc k a, sc k b) P -> covered l k P.

Let N := dotp a b b.
Let n := Z.of_nat (length (ring_segments l)).
Let k := (n + 2) * N.
Let pr (j : Z) : pt := probe k a b cur j.

Lemma N_pos : 0 < N. Proof. apply dot_pos. exact Hab. Qed.
Lemma k_pos : 0 < k. Proof. unfold k. pose proof N_pos. assert (0 <= n) by (unfold n; lia). nia. Qed.
Lemma ab_ne : a <> b. Proof. exact (pt_eqb_neq a b Hab). Qed.

Lemma pr_dot j : dotp (sc k a) (sc k b) (pr j) = k * k * curd + j * k * N.
Proof. unfold pr. rewrite probe_dot, <- Hcd. reflexivity. Qed.

Lemma pr_on j : 1 <= j <= n + 1 -> on_seg (sc k a, sc k b) (pr j).
Proof.
  intros Hj. pose proof N_pos as HN. pose proof k_pos as Hk. apply on_seg_of_dot.
  - intros E. apply ab_ne. apply (sc_inj k a b Hk E).
  - apply probe_cross. exact Hcc.
  - rewrite pr_dot, dotp_sc. fold N. split; [nia|].
    assert (j * N < k) by (unfold k; nia). assert (curd + 1 <= N) by (unfold N; lia). nia.
Qed.

Lemma pr_window j : 1 <= j <= n + 1 -> k * k * curd < dotp (sc k a) (sc k b) (pr j) < k * k * (curd + 1).
Proof.
  intros Hj. pose proof N_pos as HN. pose proof k_pos as Hk. rewrite pr_dot.
  assert (j * N < k) by (unfold k; nia). split; nia.
Qed.

(* a receiver segment collinear with ab that carries a probe makes the pass progress *)
Lemma collinear_cover_progress (s : seg) (j : Z) : 1 <= j <= n + 1 ->
  In s (ring_segments l) -> cross (fst s) (snd s) a = 0 -> cross (fst s) (snd s) b = 0 ->
  on_seg (scs k s) (pr j) -> curd < snd (covers_step l (a, b) cur curd).
Proof.
  intros Hj Hs Ca Cb Hon. pose proof k_pos as Hk. pose proof (pr_window j Hj) as [W1 W2].
  destruct s as [e1 e2]. cbn [fst snd] in *. change (scs k (e1, e2)) with (sc k e1, sc k e2) in Hon.
  assert (Kpos : 0 < k * k) by nia.
  (* the probe lies between the ends of s and just beyond cur, so cur lies between them, short of one of them *)
  assert (D : dotp a b e1 <= curd < dotp a b e2 \/ dotp a b e2 <= curd < dotp a b e1).
  { destruct (dot_between_ends (sc k a) (sc k b) (sc k e1) (sc k e2) (pr j) Hon) as [D|D]; rewrite !dotp_sc in D; [left|right]; nia. }
  assert (Hne : e1 <> e2) by (intros E; rewrite E in D; lia).
  assert (Hc : on_seg (e1, e2) cur) by (apply (on_seg_between_ends a b e1 e2 cur ab_ne Hne Ca Cb Hcc); lia).
  destruct (pass_reaches l a b cur curd (e1, e2) Hs Ca Cb Hc) as [R1 R2]. cbn [fst snd] in R1, R2. lia.
Qed.

Lemma seg_eq_dec (s t : seg) : {s = t} + {s <> t}.
Proof. repeat decide equality. Qed.

(* the counting argument: each of the n + 1 probes lies on a receiver segment; two on one segment would
   make it collinear with ab, and then the pass would progress *)
Lemma progress : curd < snd (covers_step l (a, b) cur curd).
Proof.
  destruct (Z.lt_ge_cases curd (snd (covers_step l (a, b) cur curd))) as [Y|Hno]; [exact Y|]. exfalso.
  pose proof k_pos as Hk.
  apply (pigeon seg_eq_dec (ring_segments l) (fun j s => on_seg (scs k s) (pr j))).
  - intros j Hj. apply (Hcov k (pr j) Hk (pr_on j Hj)).
  - intros s i j Hi Hj Hs Hoi Hoj. destruct (Z.eq_dec i j) as [E|Ne]; [exact E|]. exfalso.
    destruct (two_probes_collinear k a b cur s i j Hk ab_ne Hcc Ne Hoi Hoj) as [Ca Cb].
    pose proof (collinear_cover_progress s j Hj Hs Ca Cb Hoj). lia.
Qed.
End Progress.

(* the walk never rejects a segment all of whose rational points are covered *)
Lemma walk_complete (l : rng) (a b : pt) : pt_eqb a b = false ->
  (forall k P, 0 < k -> on_seg (sc k a, sc k b) P -> covered l k P) ->
  forall fuel cur curd, cross a b cur = 0 -> curd = dotp a b cur -> 0 <= curd -> curd < dotp a b b ->
  covers_walk fuel l (a, b) cur curd <> Some false.
Proof.
  intros Hab Hcov. induction fuel as [|f IH]; intros cur curd Hcc Hcd Hlo Hhi; [discriminate|].
  pose proof (progress l a b cur curd Hab Hcc Hcd Hlo Hhi Hcov) as Pg.
  destruct (covers_walk_S f l a b cur curd) as [[Er _]|(Hsrc & Hprog & E)]; [rewrite Er in Pg; cbn [snd] in Pg; lia|].
  rewrite E. destruct (Z.leb_spec (dotp a b b) (snd (covers_step l (a, b) cur curd))) as [L|L]; [discriminate|].
  destruct (src_line l a b cur curd _ Hcd Hsrc Hprog) as (s & _ & _ & _ & _ & _ & _ & Hbd & Hcb).
  apply IH; [exact Hcb|exact Hbd|lia|exact L].
Qed.

Theorem line_covers_segment_complete (l : rng) (a b : pt) :
  (forall k P, 0 < k -> on_seg (sc k a, sc k b) P -> covered l k P) -> line_covers_segment l (a, b) = Some true.
Proof.
  intros Hcov. destruct (pt_eqb a b) eqn:Eab.
  - apply pt_eqb_eq in Eab. subst b. apply covers_point_true.
    (* at scale 1 the point a itself is covered *)
    destruct (Hcov 1 a ltac:(lia)) as ([s1 s2] & Hs & Hon); [rewrite !sc_1; apply on_seg_left|].
    exists (s1, s2). split; [exact Hs|].
    change (scs 1 (s1, s2)) with (sc 1 s1, sc 1 s2) in Hon. rewrite !sc_1 in Hon. exact Hon.
  - pose proof (line_covers_segment_total l (a, b)) as T.
    destruct (line_covers_segment l (a, b)) as [[|]|] eqn:E; [reflexivity| |congruence]. exfalso.
    rewrite (covers_first_pass l a b Eab) in E.
    refine (walk_complete l a b Eab Hcov _ a 0 _ _ _ (dot_pos a b Eab) E); [unfold cross; lia|unfold dotp; lia|lia].
Qed.

Theorem line_contains_line_exact (l o : rng) : ring_empty l = false -> ring_empty o = false ->
  (line_contains_line l o = Some true <-> line_covered_by l o).
Proof.
  intros El Eo. split.
  - intros H. apply (line_contains_line_sound l o H).
  - intros Hcov. apply line_contains_line_true. split; [exact El|]. split; [exact Eo|].
    intros [a b] Hsg. apply line_covers_segment_complete, (Hcov (a, b) Hsg).
Qed.

(* Line.ContainsRect asks for the diagonal of a flat rectangle and refuses any other *)
Lemma line_contains_rect_eq (l : rng) (mn mx : pt) : ring_empty l = false ->
  line_contains_rect l (mn, mx) =
  if negb (px mn =? px mx) && negb (py mn =? py mx) then Some false else line_contains_line l (diag_line mn mx).
Proof. intros El. unfold line_contains_rect, line_contains_poly. rewrite El. reflexivity. Qed.

(* Line.ContainsRect for a flat rectangle (the only kind a line string can contain): exact as well *)
Theorem line_contains_flat_rect_exact (l : rng) (mn mx : pt) : ring_empty l = false ->
  px mn = px mx \/ py mn = py mx ->
  (line_contains_rect l (mn, mx) = Some true <-> forall k P, 0 < k -> on_seg (sc k mn, sc k mx) P -> covered l k P).
Proof.
  intros El Hflat. rewrite (line_contains_rect_eq l mn mx El).
  assert (F : negb (px mn =? px mx) && negb (py mn =? py mx) = false).
  { destruct Hflat as [H|H]; rewrite H, Z.eqb_refl; cbn [negb andb]; [reflexivity|apply andb_false_r]. }
  rewrite F. rewrite (line_contains_line_exact l (diag_line mn mx) El eq_refl). unfold line_covered_by. cbn [diag_line ring_segments r_segs]. split.
  - intros H k P Hk HP. apply (H (mn, mx) (or_introl eq_refl) k P Hk HP).
  - intros H sg [<-|[]] k P Hk HP. apply (H k P Hk HP).
Qed.

Print Assumptions line_contains_line_exact.

(* not vacuous: a bent line covers a piece that runs through its vertex, and not one that leaves it *)
Example exact_yes : line_contains_line (Lr [(0,0);(4,0);(4,4);(9,4)]) (Lr [(2,0);(4,0);(4,3)]) = Some true.
Proof. vm_compute. reflexivity. Qed.
Example exact_no : line_contains_line (Lr [(0,0);(4,0);(4,4);(9,4)]) (Lr [(2,0);(5,0)]) = Some false.
Proof. vm_compute. reflexivity. Qed.
