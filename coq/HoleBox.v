(* HoleBox.v — property C02 / C03: the bounding-box shortcut of ringContainsRing (arguments of 16 points
   and more) is sound in strict mode.  If the four sides of a rectangle lie strictly inside a ring, so
   does every rational point of the rectangle: no edge of the ring can enter the rectangle, because an
   edge with a point inside would have both ends strictly inside (it cannot cross a side), then so would
   every vertex of the ring (walking round the cycle), and a corner of the rectangle could not be inside
   the ring's own bounding box.  Hence "the box of the line is strictly inside the hole" implies "the
   line is strictly inside the hole", and Poly.IntersectsLine with holes (Holes.v) is exact for line
   strings of any length. *)
From GJ Require Import Base KernelSpec Series SeriesSpec Ring RingSpec IntersectsProofs SeriesProofs
  PipProofs PairProofs Invariance Jordan JordanQ JordanRing JordanRect Holes LineSound.
Import ListNotations.
Open Scope Z_scope.

Definition strictly_in_box (q : rect) (p : pt) : Prop :=
  px (fst q) < px p < px (snd q) /\ py (fst q) < py p < py (snd q).

Lemma box_sides (x0 y0 x1 y1 : Z) :
  ring_edges (rect_points ((x0, y0), (x1, y1))) =
  [((x0, y0), (x1, y0)); ((x1, y0), (x1, y1)); ((x1, y1), (x0, y1)); ((x0, y1), (x0, y0))].
Proof.
  unfold ring_edges, segments_spec, rect_points. cbn [closed pts length Nat.ltb Nat.leb last hd path_segs]. rewrite pt_eqb_refl. reflexivity.
Qed.

Lemma box_boundary_point (q : rect) (p : pt) : rect_wf q -> in_rectb q p = true -> ~ strictly_in_box q p ->
  exists s, In s (ring_edges (rect_points q)) /\ on_seg s p.
Proof.
  intros Hw Hin Hns.
  apply in_rectb_inbox in Hin. destruct q as [[x0 y0] [x1 y1]], p as [x y]. rewrite box_sides.
  unfold rect_wf, inbox, strictly_in_box, px, py in *. cbn [fst snd] in *.
  assert (C : x = x0 \/ x = x1 \/ y = y0 \/ y = y1) by lia.
  destruct C as [C|[C|[C|C]]]; subst;
    [exists ((x0, y1), (x0, y0))|exists ((x1, y0), (x1, y1))|exists ((x0, y0), (x1, y0))|exists ((x1, y1), (x0, y1))];
    (split; [cbn [In]; auto|unfold on_seg, cross, px, py; cbn [fst snd]; split; [ring|lia]]).
Qed.

Lemma seg_meet_at_first (s : seg) (U V : pt) : on_seg s U -> seg_meet s (U, V).
Proof. destruct s as [a b]. intros H. unfold seg_meet. left. exact H. Qed.
Lemma seg_meet_at_second (s : seg) (U V : pt) : on_seg s V -> seg_meet s (U, V).
Proof. destruct s as [a b]. intros H. unfold seg_meet. right. left. exact H. Qed.

(* a segment that meets no side of the box and starts strictly inside ends strictly inside *)
Lemma box_edge (q : rect) (U V : pt) : rect_wf q ->
  (forall s, In s (ring_edges (rect_points q)) -> ~ seg_meet s (U, V)) ->
  strictly_in_box q U -> strictly_in_box q V.
Proof.
  intros Hw Hno HU.
  pose proof (parity_constant_off_boundary (rect_points q) U V Hno) as Par.
  assert (NbU : on_boundaryb (ring_edges (rect_points q)) U = false)
    by (apply not_on_boundary; intros s Hs Hon; apply (Hno s Hs), seg_meet_at_first, Hon).
  assert (NbV : on_boundaryb (ring_edges (rect_points q)) V = false)
    by (apply not_on_boundary; intros s Hs Hon; apply (Hno s Hs), seg_meet_at_second, Hon).
  assert (InU : in_rectb q U = true) by (apply in_rectb_inbox; unfold inbox, strictly_in_box in *; lia).
  pose proof (in_ringb_rect q U Hw) as RU. pose proof (in_ringb_rect q V Hw) as RV.
  unfold in_ringb in RU, RV. rewrite NbU in RU. rewrite NbV in RV. cbn [orb] in RU, RV.
  assert (InV : in_rectb q V = true) by (rewrite <- RV, <- Par, RU; exact InU).
  assert (Dec : strictly_in_box q V \/ ~ strictly_in_box q V) by (unfold strictly_in_box; lia).
  destruct Dec as [Y|N]; [exact Y|exfalso].
  destruct (box_boundary_point q V Hw InV N) as (s & Hs & Hon). apply (Hno s Hs). apply seg_meet_at_second. exact Hon.
Qed.

Lemma path_propagate (P : pt -> Prop) (l : list pt) :
  (forall u v, In (u, v) (path_segs l) -> (P u <-> P v)) -> (exists x, In x l /\ P x) -> forall y, In y l -> P y.
Proof. exact (path_invariant P l). Qed.

Lemma box_edges_at (k : Z) (q : rect) : 0 < k ->
  ring_edges (rect_points (scr k q)) = map (scs k) (ring_edges (rect_points q)).
Proof. intros Hk. rewrite <- rect_points_sc. apply sc_edges. exact Hk. Qed.

Lemma on_boundary_not_strict (E : list seg) (e : seg) (P : pt) : In e E -> on_seg e P -> strictly_in_ringb E P = false.
Proof.
  intros Hin Hon. unfold strictly_in_ringb. rewrite (on_boundary_edge E P e Hin Hon). reflexivity.
Qed.

Section Fill.
Variables (h : list pt) (q : rect).
Hypothesis Hw : rect_wf q.
Hypothesis H3 : (3 <= length h)%nat.
Hypothesis Sides : forall sd, In sd (ring_edges (rect_points q)) -> all_strictly_inside h (fst sd) (snd sd).

(* a rational point of a side of the rectangle lies on no edge of the ring *)
Lemma side_point_off_ring (k : Z) (sd e : seg) (Y : pt) : 0 < k -> In sd (ring_edges (rect_points q)) ->
  In e (edges_at k h) -> on_seg (scs k sd) Y -> ~ on_seg e Y.
Proof.
  intros Hk Hsd He HY Hon. pose proof (Sides sd Hsd k Y Hk HY) as S. fold (edges_at k h) in S.
  rewrite (on_boundary_not_strict _ e Y He Hon) in S. discriminate S.
Qed.

(* no edge of the ring meets a side of the rectangle, at any scale *)
Lemma no_meet (k : Z) (e sd : seg) : 0 < k -> In e (edges_at k h) -> In sd (ring_edges (rect_points q)) ->
  ~ seg_meet (scs k sd) e.
Proof.
  intros Hk He Hsd Hm. destruct sd as [A B], e as [U V].
  destruct (seg_meet_common_scaled (sc k A) (sc k B) U V Hm) as (j & Y & Hj & HY1 & HY2).
  rewrite !sc_sc in HY1.
  apply (side_point_off_ring (j * k) (A, B) (scs j (U, V)) Y); [apply Z.mul_pos_pos; assumption|exact Hsd|apply (edges_at_scale j k h _ Hj He)|exact HY1|exact HY2].
Qed.

(* if one vertex of the ring were strictly inside the rectangle, all would be - and a corner of the
   rectangle could not lie in the ring's bounding box *)
Lemma no_vertex_inside (k : Z) (v : pt) : 0 < k -> In v (map (sc k) h) -> ~ strictly_in_box (scr k q) v.
Proof.
  intros Hk Hv Hin.
  assert (H3k : (3 <= length (map (sc k) h))%nat) by (rewrite map_length; exact H3).
  destruct (ring_edges_closed_path' (map (sc k) h) H3k) as (l & Hl & Hsub & _).
  assert (All : forall y, In y l -> strictly_in_box (scr k q) y).
  { apply path_propagate.
    - intros u w Huw. rewrite <- Hl in Huw. fold (edges_at k h) in Huw.
      split; intros HS; apply (box_edge (scr k q) _ _ (scr_wf k q Hk Hw)) with (2 := HS); intros s Hs Hm;
        rewrite (box_edges_at k q Hk) in Hs; apply in_map_iff in Hs; destruct Hs as (sd & <- & Hsd).
      + apply (no_meet k (u, w) sd Hk Huw Hsd Hm).
      + apply (no_meet k (u, w) sd Hk Huw Hsd). apply seg_meet_swap_r. exact Hm.
    - exists v. split; [apply Hsub; exact Hv|exact Hin]. }
  (* every vertex of h has x > x0 *)
  assert (Hne : h <> []) by (intros ->; cbn in H3; lia).
  destruct (bbox_spec_attained h Hne) as (p1 & _ & _ & _ & I1 & _ & _ & _ & E1 & _). cbv zeta in E1.
  pose proof (All (sc k p1) (Hsub _ (in_map (sc k) h p1 I1))) as S1.
  (* the first corner of the rectangle is strictly inside the ring, hence inside its bounding box *)
  destruct q as [[x0 y0] [x1 y1]] eqn:Eq.
  assert (Hside : In ((x0, y0), (x1, y0)) (ring_edges (rect_points ((x0, y0), (x1, y1)))))
    by (rewrite box_sides; left; reflexivity).
  pose proof (Sides _ Hside 1 (x0, y0) ltac:(lia)) as SC. cbn [fst snd] in SC. rewrite !sc_1, map_sc_1 in SC.
  specialize (SC (on_seg_left _ _)).
  apply strictly_in_in_bbox in SC. apply rect_contains_point_inbox in SC. unfold inbox in SC.
  unfold strictly_in_box, scr in S1. rewrite !sc_xy in S1. unfold px, py in *. cbn [fst snd] in *. nia.
Qed.

Lemma edge_vertex (k : Z) (U V : pt) : In (U, V) (edges_at k h) -> In U (map (sc k) h).
Proof. intros H. unfold edges_at in H. apply (ring_edges_endpoints _ U V H). Qed.

Lemma fill (k : Z) (P : pt) : 0 < k -> in_rectb (scr k q) P = true -> strictly_in_ringb (edges_at k h) P = true.
Proof.
  intros Hk HP.
  set (L := (px (fst (scr k q)), py P)).
  (* L is on the left side, hence strictly inside the ring *)
  assert (SL : strictly_in_ringb (edges_at k h) L = true).
  { destruct q as [[x0 y0] [x1 y1]] eqn:Eq.
    assert (Hside : In ((x0, y1), (x0, y0)) (ring_edges (rect_points ((x0, y0), (x1, y1)))))
      by (rewrite box_sides; cbn [In]; auto).
    apply (Sides _ Hside k L Hk). cbn [fst snd]. unfold L, scr. rewrite !sc_xy.
    apply in_rectb_inbox in HP. destruct P as [x y]. unfold inbox, scr in HP. rewrite !sc_xy in HP.
    unfold on_seg, cross, px, py in *. cbn [fst snd] in *.
    destruct Hw as [W1 W2]. cbn [fst snd] in W1, W2. split; [ring|]. split; nia. }
  (* no edge of the ring meets the horizontal segment from L to P *)
  assert (NoEdge : forall e, In e (ring_edges (map (sc k) h)) -> ~ seg_meet e (L, P)).
  { intros [U V] He Hm. fold (edges_at k h) in He.
    destruct (seg_meet_common_scaled _ _ _ _ Hm) as (j & X & Hj & HX1 & HX2).
    assert (Hjk : 0 < j * k) by (apply Z.mul_pos_pos; assumption).
    pose proof (edges_at_scale j k h _ Hj He) as HeJ.
    (* X lies in the closed rectangle at scale j k *)
    assert (InX : in_rectb (scr (j * k) q) X = true).
    { rewrite <- scr_scr. apply (on_seg_in_rect _ (sc j L) (sc j P)); [| |exact HX2]; apply (in_rectb_scr j _ _ Hj); [|exact HP].
      (* L is P moved to the left side *)
      apply in_rectb_inbox. apply in_rectb_inbox in HP. destruct (scr_wf k q Hk Hw) as [W1 _].
      unfold inbox, L, px, py in *. cbn [fst snd]. lia. }
    assert (Dec : strictly_in_box (scr (j * k) q) X \/ ~ strictly_in_box (scr (j * k) q) X) by (unfold strictly_in_box; lia).
    destruct Dec as [SX|NX].
    - (* strictly inside: then the end U of the edge is strictly inside too *)
      apply (no_vertex_inside (j * k) (sc j U) Hjk).
      + rewrite <- map_sc_sc. apply in_map. apply (edge_vertex k U V He).
      + apply (box_edge (scr (j * k) q) X (sc j U) (scr_wf _ q Hjk Hw)); [|exact SX].
        intros s Hs Hm'. rewrite (box_edges_at (j * k) q Hjk) in Hs. apply in_map_iff in Hs. destruct Hs as (sd & <- & Hsd).
        apply (no_meet (j * k) (scs j (U, V)) sd Hjk HeJ Hsd).
        unfold scs at 2, affs. cbn [fst snd]. fold (sc j U). fold (sc j V).
        apply (sub_segment_meet _ (sc j U) (sc j V) X HX1). apply seg_meet_swap_r. exact Hm'.
    - (* on the boundary of the rectangle: a point of a side that is on the ring *)
      destruct (box_boundary_point (scr (j * k) q) X (scr_wf _ q Hjk Hw) InX NX) as (s & Hs & Hon).
      rewrite (box_edges_at (j * k) q Hjk) in Hs. apply in_map_iff in Hs. destruct Hs as (sd & <- & Hsd).
      apply (side_point_off_ring (j * k) sd (scs j (U, V)) X Hjk Hsd HeJ Hon HX1). }
  pose proof (strict_nomeet_all_inside (map (sc k) h) L P SL NoEdge 1 P) as F. rewrite !sc_1, map_sc_1 in F.
  apply F; [lia|apply on_seg_right].
Qed.
End Fill.

Lemma rect_points_nonempty (q : rect) (b : bool) : series_empty {| closed := b; pts := rect_points q |} = false.
Proof. destruct q as [[x0 y0] [x1 y1]], b; reflexivity. Qed.

Lemma rect_points_rect (q : rect) (b : bool) : rect_wf q -> series_rect {| closed := b; pts := rect_points q |} = q.
Proof. intros Hw. rewrite (series_rect_spec _ (rect_points_nonempty q b)). cbn [pts]. apply bbox_rect_points. exact Hw. Qed.

Lemma rect_points_segs (q : rect) :
  segments_spec {| closed := true; pts := rect_points q |} = segments_spec {| closed := false; pts := rect_points q |}.
Proof.
  destruct q as [[x0 y0] [x1 y1]]. apply box_sides.
Qed.

(* the rectangle as the open line through its five corner points: the same points, segments and box *)
Lemma rcr_core_box_as_line (h : list pt) (q : rect) (allow : bool) : rect_wf q ->
  rcr_core (Rg h) (RR q) allow = rcr_core (Rg h) (Lr (rect_points q)) allow.
Proof.
  intros Hw. rewrite (RR_as_RS q Hw).
  unfold rcr_core, ring_empty, ring_rect, ring_points, ring_segments, Lr.
  rewrite !RS_empty, !RS_rect, !RS_pts, !RS_segs.
  rewrite !rect_points_nonempty, !(rect_points_rect q _ Hw), rect_points_segs. reflexivity.
Qed.

(* the shortcut: the box of the line strictly inside the hole => the line strictly inside the hole *)
Lemma shortcut_strict (h qs : list pt) : hole_ok h -> (2 <= length qs)%nat ->
  rcr_core (Rg h) (RR (ring_rect (Lr qs))) false = true -> rcr_core (Rg h) (Lr qs) false = true.
Proof.
  intros Hok H2 Hbox.
  assert (Hne : qs <> []) by (intros ->; cbn in H2; lia).
  rewrite (Lr_rect qs H2) in Hbox. set (q := bbox_spec qs) in *.
  assert (Hw : rect_wf q) by (apply bbox_wf; exact Hne).
  rewrite (rcr_core_box_as_line h q false Hw) in Hbox.
  assert (L5 : (2 <= length (rect_points q))%nat) by (destruct q as [[a b] [c d]]; cbn; lia).
  apply (rcr_core_line_strict h (rect_points q) Hok L5) in Hbox. destruct Hbox as [H3 Hsides].
  apply (rcr_core_line_strict h qs Hok H2). split; [exact H3|].
  assert (Sides : forall sd, In sd (ring_edges (rect_points q)) -> all_strictly_inside h (fst sd) (snd sd)).
  { intros sd Hsd. apply Hsides. unfold ring_edges in Hsd. rewrite rect_points_segs in Hsd. exact Hsd. }
  intros [a b] Hin k P Hk HP. cbn [fst snd] in HP. fold (edges_at k h).
  apply (fill h q Hw H3 Sides k P Hk).
  (* P lies between two points of the line, hence in its bounding box *)
  destruct (path_segs_endpoints qs a b Hin) as [Ha Hb].
  apply (on_seg_in_rect _ (sc k a) (sc k b)); [| |exact HP]; apply (in_rectb_scr k q _ Hk), in_rectb_inbox, bbox_inbox; assumption.
Qed.

(* ringContainsRing for a hole and a line string of ANY length, strict mode *)
Lemma rcr_line_strict_all (h qs : list pt) : hole_ok h -> (2 <= length qs)%nat ->
  (ring_contains_ring (Rg h) (Lr qs) false = true <-> (3 <= length h)%nat /\ line_strictly_inside h qs).
Proof.
  intros Hok H2. rewrite <- (rcr_core_line_strict h qs Hok H2).
  unfold ring_contains_ring.
  destruct (ring_empty (Rg h) || ring_empty (Lr qs)) eqn:Ee.
  - unfold rcr_core. rewrite Ee. tauto.
  - destruct ((complexRingMinPoints <=? ring_npoints (Lr qs))%nat && rcr_core (Rg h) (RR (ring_rect (Lr qs))) false) eqn:Es; [|tauto].
    apply andb_true_iff in Es. destruct Es as [_ Es]. pose proof (shortcut_strict h qs Hok H2 Es) as C. rewrite C. tauto.
Qed.

(* Poly.IntersectsLine with holes, for a line string of any length: ringContainsRing decides as Holes.v asks *)
Theorem poly_intersects_line_holes_all (e : list pt) (hs : list (list pt)) (qs : list pt) :
  Forall hole_ok hs ->
  (poly_intersects_line (Pg e hs) (Lr qs) = true <->
   ((3 <= length e)%nat /\ (2 <= length qs)%nat /\
    exists sg, In sg (path_segs qs) /\ shares_point e (fst sg) (snd sg)) /\
   forall h, In h hs -> ~ line_strictly_inside h qs).
Proof.
  intros Hok. apply poly_intersects_line_holes_gen. intros H2 h Hh.
  apply rcr_line_strict_all; [apply (proj1 (Forall_forall _ _) Hok h Hh)|exact H2].
Qed.

Theorem poly_intersects_line_pointset_all (e : list pt) (hs : list (list pt)) (qs : list pt) :
  Forall hole_ok hs -> holes_valid e hs ->
  (poly_intersects_line (Pg e hs) (Lr qs) = true <->
   (3 <= length e)%nat /\ (2 <= length qs)%nat /\
   exists sg, In sg (path_segs qs) /\ poly_shares_point e hs (fst sg) (snd sg)).
Proof.
  intros Hok Hval. apply (poly_intersects_line_pointset_gen e hs qs Hval), poly_intersects_line_holes_all, Hok.
Qed.

Print Assumptions poly_intersects_line_pointset_all.
