(* Interleave.v — property C16, the logic part: threads that never write shared
   memory cannot race and cannot influence each other, whatever the schedule.
   A small machine: one shared heap, one private heap per thread; an instruction
   copies a cell; its source is shared or private, its destination is shared or
   private.  The effect table generated from the Go SSA (tools/effects) says for
   every store-like instruction of the query / serialisation code which of the
   two its destination is; [table_ok] = none is shared. *)
From Coq Require Import List ZArith Lia Bool.
Import ListNotations.

Definition heap := nat -> Z.
Definition upd (h : heap) (a : nat) (v : Z) : heap := fun x => if Nat.eqb x a then v else h x.

Record instr := { src_shared : bool; src : nat; dst_shared : bool; dst : nat }.

Definition prog_ok (p : list instr) : bool := forallb (fun i => negb (dst_shared i)) p.

(* thread state: private heap and the rest of its program *)
Record thread := { priv : heap; code : list instr }.

Definition conf := (heap * list thread)%type.

Definition exec (sh : heap) (t : thread) : heap * thread :=
  match code t with
  | [] => (sh, t)
  | i :: rest =>
      let v := if src_shared i then sh (src i) else priv t (src i) in
      if dst_shared i then (upd sh (dst i) v, {| priv := priv t; code := rest |})
      else (sh, {| priv := upd (priv t) (dst i) v; code := rest |})
  end.

Fixpoint set_nth {A} (l : list A) (n : nat) (x : A) : list A :=
  match l, n with
  | [], _ => []
  | _ :: r, O => x :: r
  | y :: r, S k => y :: set_nth r k x
  end.

Definition idle : thread := {| priv := fun _ => 0%Z; code := [] |}.

(* one scheduling decision: thread number k takes a step *)
Definition step (c : conf) (k : nat) : conf :=
  let '(sh, ts) := c in
  match nth_error ts k with
  | None => c
  | Some t => let '(sh', t') := exec sh t in (sh', set_nth ts k t')
  end.

Definition run (c : conf) (sched : list nat) : conf := fold_left step sched c.

Definition all_ok (ts : list thread) : Prop := forall t, In t ts -> prog_ok (code t) = true.

(* a thread run alone for n steps against a fixed shared heap *)
Fixpoint solo (sh : heap) (t : thread) (n : nat) : thread :=
  match n with O => t | S k => solo sh (snd (exec sh t)) k end.

Lemma exec_ok_shared sh t : prog_ok (code t) = true ->
  fst (exec sh t) = sh /\ prog_ok (code (snd (exec sh t))) = true.
Proof.
  unfold exec. destruct (code t) as [|i rest] eqn:E; intros H.
  - cbn. rewrite E. auto.
  - cbn [prog_ok forallb] in H. apply andb_true_iff in H. destruct H as [Hi Hr].
    apply negb_true_iff in Hi. rewrite Hi. cbn. auto.
Qed.

Lemma nth_error_set_nth_eq {A} (l : list A) k x : k < length l -> nth_error (set_nth l k x) k = Some x.
Proof. revert k. induction l as [|y l IH]; intros [|k] H; cbn in *; try lia; [reflexivity|apply IH; lia]. Qed.

Lemma nth_error_set_nth_neq {A} (l : list A) k j x : k <> j -> nth_error (set_nth l k x) j = nth_error l j.
Proof.
  revert k j. induction l as [|y l IH]; intros [|k] [|j] H; cbn; try reflexivity; try congruence.
  apply IH. congruence.
Qed.

Lemma set_nth_length {A} (l : list A) k x : length (set_nth l k x) = length l.
Proof. revert k. induction l as [|y l IH]; intros [|k]; cbn; auto. Qed.

Lemma in_set_nth {A} (l : list A) k x y : In y (set_nth l k x) -> y = x \/ In y l.
Proof.
  revert k. induction l as [|z l IH]; intros [|k] H; cbn in *; try tauto.
  - destruct H; auto.
  - destruct H as [H|H]; [auto|]. destruct (IH k H); auto.
Qed.

Definition count (k : nat) (sched : list nat) : nat := length (filter (Nat.eqb k) sched).

Lemma count_cons_eq k s : count k (k :: s) = S (count k s).
Proof. unfold count. cbn [filter]. rewrite Nat.eqb_refl. reflexivity. Qed.
Lemma count_cons_neq k j s : k <> j -> count k (j :: s) = count k s.
Proof. intros H. unfold count. cbn [filter]. destruct (Nat.eqb_spec k j); [congruence|reflexivity]. Qed.

(* with no shared destination anywhere, after ANY schedule the shared heap is what it was, and every thread is
   exactly where it would be had it run alone for as many steps as it was scheduled *)
Theorem readonly_interleaving (sched : list nat) : forall (sh : heap) (ts : list thread),
  all_ok ts ->
  fst (run (sh, ts) sched) = sh /\
  forall k t, nth_error ts k = Some t ->
    nth_error (snd (run (sh, ts) sched)) k = Some (solo sh t (count k sched)).
Proof.
  induction sched as [|j sched IH]; intros sh ts Hok.
  - cbn. split; [reflexivity|]. intros k t H. exact H.
  - cbn [run fold_left]. change (fold_left step sched (step (sh, ts) j)) with (run (step (sh, ts) j) sched).
    unfold step. destruct (nth_error ts j) as [tj|] eqn:Ej.
    + destruct (exec sh tj) as [sh' tj'] eqn:Ex.
      assert (Hin : In tj ts) by (eapply nth_error_In; eassumption).
      destruct (exec_ok_shared sh tj (Hok tj Hin)) as [Hs Hc]. rewrite Ex in Hs, Hc. cbn [fst snd] in Hs, Hc. subst sh'.
      assert (Hok' : all_ok (set_nth ts j tj')).
      { intros t Ht. destruct (in_set_nth _ _ _ _ Ht) as [->|Ht']; [exact Hc|apply Hok; exact Ht']. }
      destruct (IH sh (set_nth ts j tj') Hok') as [H1 H2]. split; [exact H1|].
      intros k t Hk. destruct (Nat.eq_dec k j) as [->|Hne].
      * rewrite count_cons_eq. cbn [solo]. rewrite Hk in Ej. inversion Ej; subst tj. rewrite Ex. cbn [snd].
        apply H2. apply nth_error_set_nth_eq. apply nth_error_Some. congruence.
      * rewrite count_cons_neq by exact Hne. apply H2. rewrite nth_error_set_nth_neq by congruence. exact Hk.
    + destruct (IH sh ts Hok) as [H1 H2]. split; [exact H1|].
      intros k t Hk. destruct (Nat.eq_dec k j) as [->|Hne]; [congruence|].
      rewrite count_cons_neq by exact Hne. apply H2. exact Hk.
Qed.

(* race freedom: two steps of different threads conflict when they touch the same shared
   cell and one of them writes it; with no shared destination there is no such pair *)
Definition writes_shared_cell (i : instr) (a : nat) : bool := dst_shared i && Nat.eqb (dst i) a.
Definition reads_shared_cell (i : instr) (a : nat) : bool := src_shared i && Nat.eqb (src i) a.
Definition conflict (i j : instr) : bool :=
  existsb (fun a => writes_shared_cell i a && (writes_shared_cell j a || reads_shared_cell j a)
                    || writes_shared_cell j a && reads_shared_cell i a) [dst i; dst j].

Theorem no_conflict (p q : list instr) i j :
  prog_ok p = true -> prog_ok q = true -> In i p -> In j q -> conflict i j = false.
Proof.
  intros Hp Hq Hi Hj. unfold prog_ok in *. rewrite forallb_forall in Hp, Hq.
  pose proof (Hp i Hi) as A. pose proof (Hq j Hj) as B. apply negb_true_iff in A, B.
  unfold conflict, writes_shared_cell. rewrite A, B. reflexivity.
Qed.

(* the effect table: one abstract instruction per store-like instruction of the code *)
Definition local_class (c : Z) : bool := (c <=? 1)%Z.      (* 0 local | 1 caller-owned buffer *)
Definition table_ok {A} (table : list (A * Z)) : bool := forallb (fun e => local_class (snd e)) table.
Definition abstract_instr (c : Z) (n : nat) : instr :=
  {| src_shared := true; src := n; dst_shared := negb (local_class c); dst := n |}.
Definition abstract_prog {A} (table : list (A * Z)) : list instr :=
  map (fun en => abstract_instr (snd (fst en)) (snd en)) (combine table (seq 0 (length table))).

Theorem table_ok_prog_ok {A} (table : list (A * Z)) : table_ok table = true -> prog_ok (abstract_prog table) = true.
Proof.
  unfold table_ok, prog_ok, abstract_prog. rewrite !forallb_forall. intros H i Hi.
  apply in_map_iff in Hi. destruct Hi as ([e n] & <- & Hin). cbn [fst snd abstract_instr dst_shared].
  apply in_combine_l in Hin. rewrite (H e Hin). reflexivity.
Qed.

(* threads running any sub-sequences of the abstract program of an ok table *)
Corollary table_ok_interleaving {A} (table : list (A * Z)) (ts : list thread) (sh : heap) (sched : list nat) :
  table_ok table = true ->
  (forall t, In t ts -> forall i, In i (code t) -> In i (abstract_prog table)) ->
  fst (run (sh, ts) sched) = sh /\
  forall k t, nth_error ts k = Some t -> nth_error (snd (run (sh, ts) sched)) k = Some (solo sh t (count k sched)).
Proof.
  intros Hok Hsub. apply readonly_interleaving. intros t Ht.
  pose proof (table_ok_prog_ok table Hok) as Hp. unfold prog_ok in *. rewrite forallb_forall in *.
  intros i Hi. apply Hp. apply (Hsub t Ht i Hi).
Qed.

Print Assumptions readonly_interleaving.
Print Assumptions no_conflict.
Print Assumptions table_ok_interleaving.
