(* QTreeProofs.v — the quadtree of Index.v (geometry/qtree.go) is an exact
   accelerator: a search of the tree built by successive inserts reports
   exactly the items whose rectangle meets the query, each exactly once, for
   ANY function [mid] (nothing below uses what [mid] returns). *)
From Coq Require Import Sorting.Permutation.
From GJ Require Import Base Index.

Section QProofs.
Variable mid : Z -> Z -> Z.
Variable rect_of : Z -> rect.

(* the shape of the two rectangle tests of Base.v: both gates must stay shut *)
Lemma contains_iff (a b c d e f g h : Z) :
  rect_contains_rect ((a, b), (c, d)) ((e, f), (g, h)) = true <->
  a <= e /\ g <= c /\ b <= f /\ h <= d.
Proof. apply rcr_iff. Qed.

Lemma intersects_iff (a b c d e f g h : Z) :
  rect_intersects_rect ((a, b), (c, d)) ((e, f), (g, h)) = true <->
  b <= h /\ f <= d /\ a <= g /\ e <= c.
Proof. apply rir_iff. Qed.

Lemma choose_quad_range (bounds r : rect) :
  choose_quad mid bounds r = -1 \/ 0 <= choose_quad mid bounds r <= 3.
Proof.
  destruct bounds as [[bnx bny] [bxx bxy]], r as [[rnx rny] [rxx rxy]].
  unfold choose_quad.
  (* along the decision tree of choose_quad: seven leaves *)
  destruct (rxx <? mid bnx bxx);
    [destruct (rxy <? mid bny bxy); [|destruct (rny <? mid bny bxy)]
    |destruct (rnx <? mid bnx bxx);
       [|destruct (rxy <? mid bny bxy); [|destruct (rny <? mid bny bxy)]]]; lia.
Qed.

Theorem choose_quad_within (bounds r : rect) (q : Z) :
  rect_contains_rect bounds r = true -> choose_quad mid bounds r = q -> q <> -1 ->
  (0 <= q <= 3) /\ rect_contains_rect (quad_bounds mid bounds q) r = true.
Proof.
  destruct bounds as [[bnx bny] [bxx bxy]], r as [[rnx rny] [rxx rxy]].
  intros Hc Hq Hn. apply contains_iff in Hc.
  unfold choose_quad in Hq. unfold quad_bounds.
  destruct (Z.ltb_spec rxx (mid bnx bxx));
    [destruct (Z.ltb_spec rxy (mid bny bxy)); [|destruct (Z.ltb_spec rny (mid bny bxy))]
    |destruct (Z.ltb_spec rnx (mid bnx bxx));
       [|destruct (Z.ltb_spec rxy (mid bny bxy)); [|destruct (Z.ltb_spec rny (mid bny bxy))]]];
    subst q; try (exfalso; apply Hn; reflexivity);
    (split; [lia | cbn [Z.eqb]; apply contains_iff; lia]).
Qed.

Lemma meets_mono_gen (B r q : rect) :
  rect_contains_rect B r = true -> rect_intersects_rect r q = true ->
  rect_intersects_rect B q = true.
Proof.
  destruct B as [[a b] [c d]], r as [[e f] [g h]], q as [[i j] [k l]].
  intros H1 H2. apply contains_iff in H1. apply intersects_iff in H2. apply intersects_iff. lia.
Qed.

Lemma meets_mono (B r q : rect) :
  rect_contains_rect B r = true -> px (fst r) <= px (snd r) -> py (fst r) <= py (snd r) ->
  rect_intersects_rect r q = true -> rect_intersects_rect B q = true.
Proof. intros H _ _. apply meets_mono_gen, H. Qed.

Definition nones : list (option qnode) := [None; None; None; None].

Lemma set_nth_length {A} (l : list A) i x : length (set_nth l i x) = length l.
Proof. revert i; induction l; destruct i; cbn; auto. Qed.

Lemma nth_error_set_nth_eq {A} (l : list A) i x :
  (i < length l)%nat -> nth_error (set_nth l i x) i = Some x.
Proof.
  revert i; induction l; destruct i; cbn; intros; try lia; auto.
  apply IHl; lia.
Qed.

Lemma nth_error_set_nth_neq {A} (l : list A) i j x :
  i <> j -> nth_error (set_nth l i x) j = nth_error l j.
Proof.
  revert i j; induction l; destruct i, j; cbn; intros; try congruence; auto.
Qed.

Lemma flat_map_set_nth {A} (f : A -> list Z) l i x y item :
  nth_error l i = Some y -> Permutation (f x) (item :: f y) ->
  Permutation (flat_map f (set_nth l i x)) (item :: flat_map f l).
Proof.
  revert i; induction l as [|a l IH]; destruct i; cbn; intros Hn Hp; try discriminate.
  - injection Hn as ->. apply (Permutation_app_tail _ Hp).
  - etransitivity; [apply Permutation_app_head, (IH _ Hn Hp)|].
    symmetry; apply Permutation_middle.
Qed.

Lemma Permutation_filter' {A} (f : A -> bool) l l' :
  Permutation l l' -> Permutation (filter f l) (filter f l').
Proof.
  induction 1; cbn.
  - constructor.
  - destruct (f x); auto.
  - destruct (f x), (f y); auto using Permutation_refl. constructor.
  - etransitivity; eauto.
Qed.

Lemma filter_none {A} (f : A -> bool) l :
  (forall x, In x l -> f x = false) -> filter f l = [].
Proof.
  induction l as [|a l IH]; cbn; intros H; auto.
  rewrite (H a (or_introl eq_refl)). apply IH; auto.
Qed.

Lemma Forall_In {A} (P : A -> Prop) (l : list A) x : Forall P l -> In x l -> P x.
Proof. intros H Hin. exact (proj1 (Forall_forall P l) H x Hin). Qed.

(* an exact answer over the items 0..n-1 reports each of them at most once *)
Lemma perm_filter_seq_NoDup (l : list Z) (f : Z -> bool) n :
  Permutation l (filter f (map Z.of_nat (seq 0 n))) -> NoDup l.
Proof.
  intros H. apply (Permutation_NoDup (Permutation_sym H)), NoDup_filter, FinFun.Injective_map_NoDup;
    [exact Nat2Z.inj|apply seq_NoDup].
Qed.

Lemma slots4 {A} (l : list A) : length l = 4%nat -> exists a0 a1 a2 a3, l = [a0; a1; a2; a3].
Proof.
  destruct l as [|a0 [|a1 [|a2 [|a3 [|]]]]]; cbn; intros; try discriminate; eauto.
Qed.

Fixpoint qitems (fuel : nat) (n : qnode) : list Z :=
  match n with
  | QNode _ its qs =>
      its ++ match fuel with
             | O => []
             | S f => flat_map (fun o => match o with Some c => qitems f c | None => [] end) qs
             end
  end.

Definition oitems (f : nat) (o : option qnode) : list Z :=
  match o with Some c => qitems f c | None => [] end.

Lemma qitems_S f sp its qs : qitems (S f) (QNode sp its qs) = its ++ flat_map (oitems f) qs.
Proof. reflexivity. Qed.

Lemma qitems_nones F sp its : qitems F (QNode sp its nones) = its.
Proof. destruct F; cbn; apply app_nil_r. Qed.

Lemma qitems_qempty F : qitems F qempty = [].
Proof. apply qitems_nones. Qed.

Definition set_split (s : bool) (n : qnode) : qnode :=
  let '(QNode _ its qs) := n in QNode s its qs.

Lemma qitems_set_split F s n : qitems F (set_split s n) = qitems F n.
Proof. destruct n, F; reflexivity. Qed.

Lemma oitems_get_quad f qs q o :
  nth_error qs (Z.to_nat q) = Some o -> qitems f (get_quad qs q) = oitems f o.
Proof.
  intros H; unfold get_quad; rewrite H. destruct o; [reflexivity | apply qitems_qempty].
Qed.

Definition into_quad (d' : nat) (bounds : rect) (sp : bool) (its : list Z)
           (qs : list (option qnode)) (r0 : rect) (it0 : Z) : qnode :=
  let q := choose_quad mid bounds r0 in
  if q =? -1 then QNode sp (its ++ [it0]) qs
  else QNode sp its
         (set_nth qs (Z.to_nat q)
            (Some (qinsert mid rect_of d' (get_quad qs q) (quad_bounds mid bounds q) r0 it0))).

Definition qstep (d' : nat) (bounds : rect) (acc : qnode) (it0 : Z) : qnode :=
  let '(QNode _ its qs) := acc in into_quad d' bounds false its qs (rect_of it0) it0.

Lemma qinsert_0 sp its qs b r item :
  qinsert mid rect_of 0 (QNode sp its qs) b r item = QNode sp (its ++ [item]) qs.
Proof. reflexivity. Qed.

Lemma qinsert_S d' sp its qs b r item :
  qinsert mid rect_of (S d') (QNode sp its qs) b r item =
  if sp then into_quad d' b true its qs r item
  else if (length its =? qMaxItems)%nat then
         let '(QNode _ its' qs') := fold_left (qstep d' b) its (QNode false [] qs) in
         into_quad d' b true its' qs' r item
       else QNode sp (its ++ [item]) qs.
Proof. reflexivity. Qed.

Section Generic.
Variable C : rect -> Z -> Prop.

(* remaining depth d, bounds b: every item of the SUBTREE satisfies C b (for
   containment: an item pushed down stays inside all its ancestors' bounds,
   which is what makes pruning sound for an arbitrary [mid]); an unsplit node
   has no children; at d = 0 the node is unsplit; children are well-formed
   in their quadrant *)
Fixpoint qwfG (d : nat) (b : rect) (n : qnode) {struct d} : Prop :=
  match n with
  | QNode sp its qs =>
      (forall it, In it (qitems d n) -> C b it) /\
      (sp = false -> qs = nones) /\
      match d with
      | O => sp = false
      | S d' => length qs = 4%nat /\
                forall k c, 0 <= k -> nth_error qs (Z.to_nat k) = Some (Some c) ->
                            qwfG d' (quad_bounds mid b k) c
      end
  end.

Lemma qwfG_0 b sp its qs :
  qwfG 0 b (QNode sp its qs) <->
  (forall it, In it its -> C b it) /\ sp = false /\ qs = nones.
Proof.
  cbn [qwfG qitems]. rewrite app_nil_r. intuition.
Qed.

Lemma qwfG_S d' b sp its qs :
  qwfG (S d') b (QNode sp its qs) <->
  (forall it, In it (qitems (S d') (QNode sp its qs)) -> C b it) /\
  (sp = false -> qs = nones) /\ length qs = 4%nat /\
  (forall k c, 0 <= k -> nth_error qs (Z.to_nat k) = Some (Some c) ->
               qwfG d' (quad_bounds mid b k) c).
Proof. reflexivity. Qed.

Lemma qwfG_items d b n it : qwfG d b n -> In it (qitems d n) -> C b it.
Proof. destruct d, n; intros [H _]; apply H. Qed.

Lemma qwfG_leaf_S d' b sp : qwfG (S d') b (QNode sp [] nones).
Proof.
  apply qwfG_S; rewrite qitems_nones.
  split; [intros ? []|]. split; [reflexivity|]. split; [reflexivity|].
  intros k c Hk H. exfalso.
  assert (Hn : forall j, nth_error nones j = Some (Some c) -> False).
  { intros j. do 4 (destruct j; [discriminate|]). destruct j; discriminate. }
  exact (Hn _ H).
Qed.

Lemma qwfG_qempty d b : qwfG d b qempty.
Proof.
  destruct d; [apply qwfG_0 | apply qwfG_leaf_S].
  split; [intros ? []|split; reflexivity].
Qed.

Lemma qwfG_get_quad d' b sp its qs q :
  qwfG (S d') b (QNode sp its qs) -> 0 <= q -> qwfG d' (quad_bounds mid b q) (get_quad qs q).
Proof.
  intros W Hq. apply qwfG_S in W. destruct W as (_ & _ & _ & Hc).
  unfold get_quad. destruct (nth_error qs (Z.to_nat q)) as [[c|]|] eqn:E;
    [apply Hc; assumption | apply qwfG_qempty | apply qwfG_qempty].
Qed.

Lemma qwfG_kid d b sp its qs c :
  qwfG (S d) b (QNode sp its qs) -> In (Some c) qs -> exists b', qwfG d b' c.
Proof.
  intros W Hin. apply qwfG_S in W. destruct W as (_ & _ & _ & Hc).
  apply In_nth_error in Hin. destruct Hin as [i Hi].
  exists (quad_bounds mid b (Z.of_nat i)). apply Hc; [lia|rewrite Nat2Z.id; exact Hi].
Qed.

(* fuel beyond the depth bound is irrelevant *)
Lemma qitems_fuel d : forall b n F, qwfG d b n -> (d <= F)%nat -> qitems F n = qitems d n.
Proof.
  induction d as [|d' IH]; intros b [sp its qs] F W HF.
  - apply qwfG_0 in W. destruct W as (_ & _ & ->). now rewrite !qitems_nones.
  - destruct F as [|f]; [lia|]. rewrite !qitems_S. f_equal.
    rewrite !flat_map_concat_map. f_equal. apply map_ext_in. intros [c|] Hin; [|reflexivity].
    destruct (qwfG_kid _ _ _ _ _ _ W Hin) as (b' & Wc). apply (IH b' c f Wc). lia.
Qed.

(* C survives the descent chosen by choose_quad *)
Definition downp (r : rect) (item : Z) : Prop :=
  forall b q, C b item -> choose_quad mid b r = q -> q <> -1 -> C (quad_bounds mid b q) item.

Hypothesis C_down : forall it, downp (rect_of it) it.

(* items are counted with fuel d: by [qitems_fuel] more fuel sees the same *)
Definition insert_ok (d : nat) : Prop :=
  forall n b r item, qwfG d b n -> C b item -> downp r item ->
    qwfG d b (qinsert mid rect_of d n b r item) /\
    Permutation (qitems d (qinsert mid rect_of d n b r item)) (item :: qitems d n).

Lemma into_quad_spec d' (IH : insert_ok d') b its qs r item :
  qwfG (S d') b (QNode true its qs) -> C b item -> downp r item ->
  qwfG (S d') b (into_quad d' b true its qs r item) /\
  Permutation (qitems (S d') (into_quad d' b true its qs r item))
              (item :: qitems (S d') (QNode true its qs)).
Proof.
  intros W Ci Dn. unfold into_quad.
  destruct (choose_quad_range b r) as [E|R].
  - rewrite E, Z.eqb_refl.
    assert (P : Permutation (qitems (S d') (QNode true (its ++ [item]) qs))
                            (item :: qitems (S d') (QNode true its qs))).
    { rewrite !qitems_S, <- app_assoc. cbn [app]. symmetry; apply Permutation_middle. }
    split; [|exact P].
    apply qwfG_S. pose proof W as W0. apply qwfG_S in W. destruct W as (Hi & Hs & L & Hc).
    split; [|auto].
    intros it Hin. apply (Permutation_in _ P) in Hin.
    destruct Hin as [<-|Hin]; auto.
  - set (q := choose_quad mid b r) in *.
    destruct (q =? -1) eqn:E; [apply Z.eqb_eq in E; lia|].
    pose proof W as W0. apply qwfG_S in W. destruct W as (Hi & Hs & L & Hc).
    destruct (nth_error qs (Z.to_nat q)) as [o|] eqn:En;
      [|apply nth_error_None in En; lia].
    assert (Hq1 : q <> -1) by lia.
    destruct (IH (get_quad qs q) (quad_bounds mid b q) r item
                 (qwfG_get_quad _ _ _ _ _ q W0 (proj1 R)) (Dn b q Ci eq_refl Hq1) Dn)
      as [W' P'].
    set (c' := qinsert mid rect_of d' (get_quad qs q) (quad_bounds mid b q) r item) in *.
    assert (P : Permutation (qitems (S d') (QNode true its (set_nth qs (Z.to_nat q) (Some c'))))
                            (item :: qitems (S d') (QNode true its qs))).
    { rewrite !qitems_S.
      etransitivity; [apply Permutation_app_head|symmetry; apply Permutation_middle].
      apply (flat_map_set_nth (oitems d') qs (Z.to_nat q) (Some c') o item En).
      cbn [oitems]. rewrite <- (oitems_get_quad d' qs q o En). exact P'. }
    split; [|exact P].
    apply qwfG_S. split; [|split; [discriminate|split]].
    + intros it Hin. apply (Permutation_in _ P) in Hin.
      destruct Hin as [<-|Hin]; auto.
    + now rewrite set_nth_length.
    + intros k c Hk Hn. destruct (Z.eq_dec k q) as [->|Hne].
      * rewrite nth_error_set_nth_eq in Hn by lia. injection Hn as <-. exact W'.
      * rewrite nth_error_set_nth_neq in Hn by lia. apply Hc; assumption.
Qed.

Lemma qfold_spec d' (IH : insert_ok d') b :
  forall l acc, qwfG (S d') b (set_split true acc) -> (forall it, In it l -> C b it) ->
    qwfG (S d') b (set_split true (fold_left (qstep d' b) l acc)) /\
    Permutation (qitems (S d') (fold_left (qstep d' b) l acc)) (l ++ qitems (S d') acc).
Proof.
  induction l as [|a l IHl]; intros acc W Hl; cbn [fold_left].
  - split; [exact W | apply Permutation_refl].
  - destruct acc as [s its qs]. cbn [set_split] in W.
    destruct (into_quad_spec d' IH b its qs (rect_of a) a W (Hl a (or_introl eq_refl)) (C_down a))
      as [W1 P1].
    assert (E : set_split true (qstep d' b (QNode s its qs) a)
                = into_quad d' b true its qs (rect_of a) a).
    { cbn [qstep]. unfold into_quad. destruct (_ =? -1); reflexivity. }
    specialize (IHl (qstep d' b (QNode s its qs) a)). rewrite E in IHl.
    destruct (IHl W1 (fun it H => Hl it (or_intror H))) as [W2 P2].
    split; [exact W2|].
    etransitivity; [exact P2|].
    rewrite <- (qitems_set_split _ true (qstep _ _ _ _)), E.
    etransitivity; [apply Permutation_app_head, P1|].
    rewrite <- (qitems_set_split _ true (QNode s its qs)). cbn [set_split app].
    symmetry; apply Permutation_middle.
Qed.

Theorem qinsert_spec d : insert_ok d.
Proof.
  induction d as [|d' IH]; intros [sp its qs] b r item W Ci Dn.
  - rewrite qinsert_0. apply qwfG_0 in W. destruct W as (Hi & -> & ->).
    split.
    + apply qwfG_0. repeat split. intros it Hin. apply in_app_iff in Hin.
      destruct Hin as [Hin|[<-|[]]]; auto.
    + rewrite !qitems_nones. symmetry; apply Permutation_cons_append.
  - rewrite qinsert_S. destruct sp.
    + apply into_quad_spec; assumption.
    + pose proof W as W0. apply qwfG_S in W. destruct W as (Hi & Hs & L & Hc).
      specialize (Hs eq_refl). subst qs. rewrite qitems_nones in Hi.
      destruct (length its =? qMaxItems)%nat.
      * assert (Wa : qwfG (S d') b (set_split true (QNode false [] nones)))
          by apply qwfG_leaf_S.
        destruct (qfold_spec d' IH b its (QNode false [] nones) Wa Hi) as [W1 P1].
        destruct (fold_left (qstep d' b) its (QNode false [] nones)) as [s its' qs'].
        cbn [set_split] in W1.
        destruct (into_quad_spec d' IH b its' qs' r item W1 Ci Dn) as [W2 P2].
        split; [exact W2|].
        etransitivity; [exact P2|]. constructor.
        rewrite <- (qitems_set_split _ s (QNode true its' qs')). cbn [set_split].
        etransitivity; [exact P1|]. rewrite !qitems_nones, app_nil_r. apply Permutation_refl.
      * split.
        -- apply qwfG_S. rewrite qitems_nones. repeat split; auto.
           intros it Hin. apply in_app_iff in Hin. destruct Hin as [Hin|[<-|[]]]; auto.
        -- rewrite !qitems_nones. symmetry; apply Permutation_cons_append.
Qed.

(* a list of inserts, for any C that survives the descent *)
Lemma qbuild_genG D b :
  forall l root, qwfG D b root -> (forall i, In i l -> C b (Z.of_nat i)) ->
    let t := fold_left (fun root i => qinsert mid rect_of D root b (rect_of (Z.of_nat i)) (Z.of_nat i))
                       l root in
    qwfG D b t /\ Permutation (qitems D t) (map Z.of_nat l ++ qitems D root).
Proof.
  induction l as [|a l IHl]; intros root W Hl; cbn [fold_left map app].
  - split; [exact W | apply Permutation_refl].
  - destruct (qinsert_spec D root b (rect_of (Z.of_nat a)) (Z.of_nat a) W
                (Hl a (or_introl eq_refl)) (C_down _)) as [W1 P1].
    destruct (IHl _ W1 (fun i H => Hl i (or_intror H))) as [W2 P2].
    split; [exact W2|].
    etransitivity; [exact P2|].
    etransitivity; [apply Permutation_app_head, P1|].
    symmetry; apply Permutation_middle.
Qed.

End Generic.

Lemma qwfG_weaken (C1 C2 : rect -> Z -> Prop) :
  (forall b it, C1 b it -> C2 b it) -> forall d b n, qwfG C1 d b n -> qwfG C2 d b n.
Proof.
  intros H; induction d as [|d' IH]; intros b [sp its qs] W.
  - apply qwfG_0 in W; apply qwfG_0. destruct W as (Hi & Hs & Hq). auto.
  - apply qwfG_S in W; apply qwfG_S. destruct W as (Hi & Hs & L & Hc).
    split; [auto|]. split; [auto|]. split; [auto|].
    intros k c Hk Hn. apply IH, Hc; assumption.
Qed.

Definition Cin (b : rect) (it : Z) : Prop := rect_contains_rect b (rect_of it) = true.

Definition qwf : nat -> rect -> qnode -> Prop := qwfG Cin.

Lemma Cin_down it : downp Cin (rect_of it) it.
Proof.
  intros b q Hc Hq Hn. exact (proj2 (choose_quad_within b (rect_of it) q Hc Hq Hn)).
Qed.

Lemma qwf_items d b n it F :
  qwf d b n -> (d <= F)%nat -> In it (qitems F n) -> rect_contains_rect b (rect_of it) = true.
Proof.
  intros W HF Hin. rewrite (qitems_fuel Cin d b n F W HF) in Hin.
  exact (qwfG_items Cin d b n it W Hin).
Qed.

Theorem qinsert_wf d n bounds r item :
  qwf d bounds n -> rect_of item = r -> rect_contains_rect bounds r = true ->
  qwf d bounds (qinsert mid rect_of d n bounds r item).
Proof.
  intros W E Hc. apply (qinsert_spec Cin Cin_down d n bounds r item W).
  - unfold Cin; rewrite E; exact Hc.
  - subst r; apply Cin_down.
Qed.

(* the multiset of items: the new rectangle need not lie in the bounds *)
Theorem qinsert_items d n bounds r item F :
  qwf d bounds n -> (d <= F)%nat ->
  Permutation (qitems F (qinsert mid rect_of d n bounds r item)) (item :: qitems F n).
Proof.
  intros W HF. set (T := fun (_ : rect) (_ : Z) => True).
  assert (WT : qwfG T d bounds n)
    by (apply (qwfG_weaken Cin T); [intros; exact I | exact W]).
  assert (DT : forall r0 it, downp T r0 it) by (intros r0 it b q _ _ _; exact I).
  destruct (qinsert_spec T (fun it => DT _ it) d n bounds r item WT I (DT r item)) as [W' P].
  rewrite (qitems_fuel T d bounds _ F W' HF), (qitems_fuel T d bounds n F WT HF). exact P.
Qed.

Local Notation hit q := (fun it => rect_intersects_rect (rect_of it) q).

Definition ssearch (q : rect) (f : nat) (b : rect) (o : option qnode) (k : Z) : list Z :=
  match o with
  | Some c =>
      if rect_intersects_rect (quad_bounds mid b k) q
      then qsearch mid rect_of f c (quad_bounds mid b k) q else []
  | None => []
  end.

Lemma qsearch_0 q sp its qs b :
  qsearch mid rect_of 0 (QNode sp its qs) b q = filter (hit q) its ++ [].
Proof. reflexivity. Qed.

Lemma qsearch_S q f sp its a0 a1 a2 a3 b :
  qsearch mid rect_of (S f) (QNode sp its [a0; a1; a2; a3]) b q =
  filter (hit q) its ++
  if sp then ssearch q f b a0 0 ++ ssearch q f b a1 1 ++ ssearch q f b a2 2 ++ ssearch q f b a3 3 ++ []
  else [].
Proof. reflexivity. Qed.

(* the search even returns the items in the order of [qitems] *)
Lemma qsearch_eq q d : forall b n F F', qwf d b n -> (d <= F)%nat -> (d <= F')%nat ->
  qsearch mid rect_of F n b q = filter (hit q) (qitems F' n).
Proof.
  induction d as [|d' IH]; intros b [sp its qs] F F' W HF HF'.
  - apply qwfG_0 in W. destruct W as (_ & -> & ->). rewrite qitems_nones.
    destruct F; [rewrite qsearch_0 | unfold nones; rewrite qsearch_S]; apply app_nil_r.
  - destruct F as [|f]; [lia|]. destruct F' as [|f']; [lia|].
    apply qwfG_S in W. destruct W as (Hi & Hs & L & Hc).
    destruct (slots4 _ L) as (a0 & a1 & a2 & a3 & ->).
    rewrite qsearch_S, qitems_S. destruct sp.
    + assert (E : forall k o, 0 <= k -> nth_error [a0; a1; a2; a3] (Z.to_nat k) = Some o ->
                              ssearch q f b o k = filter (hit q) (oitems f' o)).
      { intros k [c|] Hk Hn; [|reflexivity]. cbn [ssearch oitems].
        specialize (Hc k c Hk Hn).
        destruct (rect_intersects_rect (quad_bounds mid b k) q) eqn:Ei.
        - apply IH; [exact Hc | lia | lia].
        - symmetry; apply filter_none. intros it Hin.
          assert (Hin' : rect_contains_rect (quad_bounds mid b k) (rect_of it) = true)
            by (apply (qwf_items d' _ c it f' Hc); [lia | exact Hin]).
          destruct (rect_intersects_rect (rect_of it) q) eqn:Eh; [|reflexivity].
          rewrite (meets_mono_gen _ _ _ Hin' Eh) in Ei. discriminate. }
      rewrite (E 0 a0), (E 1 a1), (E 2 a2), (E 3 a3); try lia; try reflexivity.
      cbn [flat_map]. rewrite !filter_app. reflexivity.
    + injection (Hs eq_refl) as -> -> -> ->.
      cbn [flat_map oitems app]. rewrite !app_nil_r. reflexivity.
Qed.

Theorem qsearch_exact d n bounds q F F' :
  qwf d bounds n -> (d <= F)%nat -> (d <= F')%nat ->
  Permutation (qsearch mid rect_of F n bounds q)
              (filter (fun it => rect_intersects_rect (rect_of it) q) (qitems F' n)).
Proof.
  intros W HF HF'. rewrite (qsearch_eq q d bounds n F F' W HF HF'). apply Permutation_refl.
Qed.

Lemma qbuild_wf_items (bounds : rect) (n : nat) :
  (forall i, (i < n)%nat -> rect_contains_rect bounds (rect_of (Z.of_nat i)) = true) ->
  qwf qMaxDepth bounds (qbuild mid rect_of bounds n) /\
  Permutation (qitems (S qMaxDepth) (qbuild mid rect_of bounds n)) (map Z.of_nat (seq 0 n)).
Proof.
  intros H. unfold qbuild.
  assert (Hin : forall i, In i (seq 0 n) -> Cin bounds (Z.of_nat i)).
  { intros i Hi. apply in_seq in Hi. apply H. lia. }
  destruct (qbuild_genG Cin Cin_down qMaxDepth bounds (seq 0 n) qempty (qwfG_qempty Cin _ _) Hin)
    as [W Pm].
  split; [exact W|]. rewrite qitems_qempty, app_nil_r in Pm.
  rewrite (qitems_fuel Cin _ _ _ _ W (Nat.le_succ_diag_r _)). exact Pm.
Qed.

(* exactness needs only that the rectangles lie inside the bounds *)
Theorem qbuild_search_contained (bounds : rect) (n : nat) (q : rect) :
  (forall i, (i < n)%nat -> rect_contains_rect bounds (rect_of (Z.of_nat i)) = true) ->
  Permutation (qsearch mid rect_of (S qMaxDepth) (qbuild mid rect_of bounds n) bounds q)
              (filter (fun it => rect_intersects_rect (rect_of it) q) (map Z.of_nat (seq 0 n))).
Proof.
  intros H. destruct (qbuild_wf_items bounds n H) as [W Pm].
  rewrite (qsearch_eq q qMaxDepth bounds _ (S qMaxDepth) (S qMaxDepth) W
                      (Nat.le_succ_diag_r _) (Nat.le_succ_diag_r _)).
  apply Permutation_filter', Pm.
Qed.

Theorem qbuild_search_exact (bounds : rect) (n : nat) (q : rect) :
  (forall i, (i < n)%nat ->
     let r := rect_of (Z.of_nat i) in
     px (fst r) <= px (snd r) /\ py (fst r) <= py (snd r) /\ rect_contains_rect bounds r = true) ->
  Permutation (qsearch mid rect_of (S qMaxDepth) (qbuild mid rect_of bounds n) bounds q)
              (filter (fun it => rect_intersects_rect (rect_of it) q) (map Z.of_nat (seq 0 n))).
Proof. intros H. apply qbuild_search_contained. intros i Hi. apply (H i Hi). Qed.

Theorem qbuild_search_nodup (bounds : rect) (n : nat) (q : rect) :
  (forall i, (i < n)%nat ->
     let r := rect_of (Z.of_nat i) in
     px (fst r) <= px (snd r) /\ py (fst r) <= py (snd r) /\ rect_contains_rect bounds r = true) ->
  NoDup (qsearch mid rect_of (S qMaxDepth) (qbuild mid rect_of bounds n) bounds q).
Proof.
  intros H. apply (perm_filter_seq_NoDup _ _ _ (qbuild_search_exact bounds n q H)).
Qed.

End QProofs.

Print Assumptions choose_quad_within.
Print Assumptions meets_mono.
Print Assumptions qinsert_wf.
Print Assumptions qinsert_items.
Print Assumptions qsearch_exact.
Print Assumptions qbuild_search_exact.
Print Assumptions qbuild_search_nodup.
