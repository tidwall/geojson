(* JordanQ.v — properties C02 / C03, a ring against a segment or a line string as POINT SETS.
   A rational point is written (P, k), k > 0, meaning P / k; it lies on the
   segment A-B when P is on the k-fold scaled segment, and in the closed ring
   when P is in the k-fold scaled ring (membership does not depend on the
   representative: in_ring_scale_invariant).
   Theorem ring_intersects_segment_pointset: ringIntersectsSegment (allowOnEdge)
   answers true exactly when the closed segment and the closed ring share a
   rational point; ring_intersects_line_pointset: the same for ringIntersectsLine and
   a line string; ring_contains_segment_strict_pointset: ringContainsSegment in strict
   mode, on a ring not flagged convex, answers true exactly when every rational point
   of the segment is strictly inside.  Built on Jordan.v (parity is constant along a
   segment no edge meets) and IntersectsQ.v (seg_meet = common rational point). *)
From Coq Require Import QArith.
From GJ Require Import Base Kernel KernelSpec Series SeriesSpec Ring RingSpec KernelProofs
  IntersectsProofs IntersectsQ PipProofs PairProofs Invariance Jordan.
Import ListNotations.
Local Open Scope Z_scope.

Definition sc (k : Z) (p : pt) : pt := aff k 0 0 p.
Definition scs (k : Z) (s : seg) : seg := affs k 0 0 s.

Lemma sc_1 p : sc 1 p = p.
Proof. destruct p as [x y]. unfold sc, aff, px, py. cbn [fst snd]. f_equal; lia. Qed.

Lemma map_sc_1 ps : map (sc 1) ps = ps.
Proof. induction ps as [|p ps IH]; [reflexivity|]. cbn [map]. rewrite sc_1, IH. reflexivity. Qed.

Lemma sc_sc j k p : sc j (sc k p) = sc (j * k) p.
Proof. destruct p as [x y]. unfold sc, aff, px, py. cbn [fst snd]. f_equal; ring. Qed.

Lemma map_sc_sc j k ps : map (sc j) (map (sc k) ps) = map (sc (j * k)) ps.
Proof. rewrite map_map. apply map_ext. intros p. apply sc_sc. Qed.

Lemma sc_edges k ps : 0 < k -> ring_edges (map (sc k) ps) = map (scs k) (ring_edges ps).
Proof. intros Hk. apply ring_edges_aff. exact Hk. Qed.

Lemma parityb_sc j E p : 0 < j -> parityb (map (scs j) E) (sc j p) = parityb E p.
Proof. intros Hj. unfold sc, scs. apply parityb_aff. exact Hj. Qed.

Lemma in_ringb_sc k E p : 0 < k -> in_ringb (map (scs k) E) (sc k p) = in_ringb E p.
Proof.
  intros Hk. unfold in_ringb. rewrite parityb_sc by exact Hk. unfold sc, scs. rewrite on_boundaryb_aff by exact Hk. reflexivity.
Qed.

(* membership of P/k does not depend on the representative *)
Theorem in_ring_scale_invariant (ps : list pt) (j k : Z) (P : pt) : 0 < j ->
  in_ringb (ring_edges (map (sc (j * k)) ps)) (sc j P) = in_ringb (ring_edges (map (sc k) ps)) P.
Proof. intros Hj. rewrite <- map_sc_sc, sc_edges by exact Hj. apply in_ringb_sc. exact Hj. Qed.

Lemma seg_meet_sc k s o : 0 < k -> seg_meet (scs k s) (scs k o) <-> seg_meet s o.
Proof.
  intros Hk. rewrite <- !intersects_segment_iff. unfold scs. rewrite intersects_segment_aff by exact Hk. tauto.
Qed.

Lemma on_seg_sc_iff j e p : 0 < j -> on_seg (scs j e) (sc j p) <-> on_seg e p.
Proof. intros Hj. rewrite <- !on_segb_iff. unfold scs, sc. rewrite on_segb_aff by exact Hj. tauto. Qed.

Lemma on_seg_sc j e p : 0 < j -> on_seg e p -> on_seg (scs j e) (sc j p).
Proof. intros Hj. apply on_seg_sc_iff. exact Hj. Qed.

Lemma shared_point_meet (e : seg) (A B P : pt) : on_seg e P -> on_seg (A, B) P -> seg_meet e (A, B).
Proof.
  intros H1 H2. apply seg_meet_iff_common_point. exists (inject_Z (px P), inject_Z (py P)).
  destruct e as [a b]. split; apply on_seg_on_segQ; assumption.
Qed.

(* two segments that meet share a grid point at some scale *)
Lemma seg_meet_common_scaled (a b c d : pt) :
  seg_meet (a, b) (c, d) ->
  exists k P, 0 < k /\ on_seg (sc k a, sc k b) P /\ on_seg (sc k c, sc k d) P.
Proof.
  rewrite seg_meet_unfold. intros [H|[H|[H|[H|[H1 H2]]]]].
  - exists 1, c. rewrite !sc_1. split; [lia|]. split; [exact H|apply on_seg_left].
  - exists 1, d. rewrite !sc_1. split; [lia|]. split; [exact H|apply on_seg_right].
  - exists 1, a. rewrite !sc_1. split; [lia|]. split; [apply on_seg_left|exact H].
  - exists 1, b. rewrite !sc_1. split; [lia|]. split; [apply on_seg_right|exact H].
  - (* proper crossing: Cramer's point a + (C/R) r = c + (-A/R) s is a grid point at the scale R * R *)
    destruct (opp_unit_frac a b c d H1 H2) as (HR & FC & FA).
    set (R := rxs a b c d) in *.
    exists (R * R), (R * R * px a + R * cross c d a * (px b - px a), R * R * py a + R * cross c d a * (py b - py a)).
    split; [clear - HR; nia|]. split.
    + apply (on_seg_of_frac _ _ _ (cross c d a) R); [| |exact HR|exact FC]; unfold sc, aff, px, py; cbn [fst snd]; ring.
    + apply (on_seg_of_frac _ _ _ (- cross a b c) R); [| |exact HR|exact FA];
        unfold R, rxs, cross, sc, aff, px, py; cbn [fst snd]; ring.
Qed.

Lemma sub_segment_meet (e : seg) (A B P : pt) :
  on_seg (A, B) P -> seg_meet e (A, P) -> seg_meet e (A, B).
Proof.
  destruct e as [a b]. intros HP Hm. destruct (seg_meet_common_scaled a b A P Hm) as (k & Q & Hk & Q1 & Q2).
  apply (seg_meet_sc k (a, b) (A, B) Hk). apply (shared_point_meet _ _ _ Q Q1).
  apply (on_seg_convex _ _ (sc k A) (sc k P)); [apply on_seg_left|apply (on_seg_sc k (A, B) P Hk HP)|exact Q2].
Qed.

Lemma no_edge_meets_iff (E : list seg) (s : seg) :
  existsb (fun e => seg_meetb e s) E = false <-> forall e, In e E -> ~ seg_meet e s.
Proof.
  rewrite existsb_false_iff. split; intros H e He.
  - rewrite <- seg_meetb_iff, (H e He). discriminate.
  - apply not_true_is_false. rewrite seg_meetb_iff. apply H, He.
Qed.

(* an edge that meets the segment A-B gives a rational point of A-B on the boundary *)
Lemma meet_boundary_point (ps : list pt) (e : seg) (A B : pt) : In e (ring_edges ps) -> seg_meet e (A, B) ->
  exists k P, 0 < k /\ on_seg (sc k A, sc k B) P /\ on_boundaryb (ring_edges (map (sc k) ps)) P = true.
Proof.
  destruct e as [a b]. intros He Hm. destruct (seg_meet_common_scaled a b A B Hm) as (k & P & Hk & H1 & H2).
  exists k, P. split; [exact Hk|]. split; [exact H2|]. rewrite sc_edges by exact Hk.
  apply (on_boundary_edge _ _ (scs k (a, b))); [apply in_map; exact He|exact H1].
Qed.

(* the rational form of Jordan.parity_constant_off_boundary: along a segment no edge meets, every
   rational point is off the boundary and has the crossing parity of the first end *)
Lemma nomeet_status (ps : list pt) (A B : pt) (k : Z) (P : pt) : 0 < k ->
  (forall e, In e (ring_edges ps) -> ~ seg_meet e (A, B)) -> on_seg (sc k A, sc k B) P ->
  on_boundaryb (ring_edges (map (sc k) ps)) P = false /\
  parityb (ring_edges (map (sc k) ps)) P = parityb (ring_edges ps) A.
Proof.
  intros Hk N HP.
  assert (N' : forall e', In e' (ring_edges (map (sc k) ps)) -> ~ seg_meet e' (sc k A, sc k B)).
  { intros e' He' Hm. rewrite sc_edges in He' by exact Hk. apply in_map_iff in He'. destruct He' as (e & <- & He).
    apply (N e He). apply (seg_meet_sc k e (A, B) Hk). exact Hm. }
  split.
  - apply not_on_boundary. intros e' He' Hon. apply (N' e' He'), (shared_point_meet e' _ _ P Hon HP).
  - rewrite <- (parityb_sc k (ring_edges ps) A Hk), <- sc_edges by exact Hk. symmetry.
    apply parity_constant_off_boundary. intros e' He' Hm. apply (N' e' He'), (sub_segment_meet e' _ _ P HP Hm).
Qed.

Definition shares_point (ps : list pt) (A B : pt) : Prop :=
  exists k P, 0 < k /\ on_seg (sc k A, sc k B) P /\ in_ringb (ring_edges (map (sc k) ps)) P = true.

Lemma shares_point_end (ps : list pt) (A B p : pt) :
  p = A \/ p = B -> in_ringb (ring_edges ps) p = true -> shares_point ps A B.
Proof.
  intros Hp Hin. exists 1, p. rewrite !sc_1, map_sc_1. split; [lia|]. split; [|exact Hin].
  destruct Hp as [->| ->]; [apply on_seg_left|apply on_seg_right].
Qed.

Theorem ring_intersects_segment_pointset (ps : list pt) (A B : pt) :
  ring_intersects_segment (RS {| closed := true; pts := ps |}) (A, B) true = true <-> shares_point ps A B.
Proof.
  rewrite ring_intersects_segment_exact. split.
  - rewrite !orb_true_iff. intros [[HA|HB]|Hm].
    + apply (shares_point_end ps A B A); [left; reflexivity|exact HA].
    + apply (shares_point_end ps A B B); [right; reflexivity|exact HB].
    + apply existsb_exists in Hm. destruct Hm as (e & Hin & Hm). apply seg_meetb_iff in Hm.
      destruct (meet_boundary_point ps e A B Hin Hm) as (k & P & Hk & HP & Hb).
      exists k, P. split; [exact Hk|]. split; [exact HP|]. unfold in_ringb. rewrite Hb. reflexivity.
  - intros (k & P & Hk & HP & Hin).
    destruct (in_ringb (ring_edges ps) A) eqn:EA; [reflexivity|]. destruct (in_ringb (ring_edges ps) B); [reflexivity|].
    destruct (existsb (fun e => seg_meetb e (A, B)) (ring_edges ps)) eqn:Em; [reflexivity|exfalso].
    (* no edge meets the segment: P is off the boundary and as far outside as A *)
    destruct (nomeet_status ps A B k P Hk (proj1 (no_edge_meets_iff _ _) Em) HP) as [Hb Hp].
    apply in_ringb_false_iff in EA. unfold in_ringb in Hin. rewrite Hb, Hp, (proj2 EA) in Hin. discriminate Hin.
Qed.

Print Assumptions ring_intersects_segment_pointset.
Print Assumptions in_ring_scale_invariant.

Lemma in_path_endpoint (qs : list pt) (p : pt) :
  In p qs -> (2 <= length qs)%nat -> exists sg, In sg (path_segs qs) /\ (fst sg = p \/ snd sg = p).
Proof.
  induction qs as [|x l IH]; [intros []|]. intros Hin H2.
  destruct l as [|y r]; [cbn in H2; lia|]. rewrite path_segs_cons2.
  destruct Hin as [<-|Hin].
  - exists (x, y). split; [left; reflexivity|left; reflexivity].
  - destruct r as [|z r'].
    + destruct Hin as [<-|[]]. exists (x, y). split; [left; reflexivity|right; reflexivity].
    + destruct (IH Hin) as (sg & Hs & Hp); [cbn; lia|]. exists sg. split; [right; exact Hs|exact Hp].
Qed.

Lemma line_seg_rect_in (qs : list pt) (sg : seg) : (2 <= length qs)%nat ->
  In sg (path_segs qs) -> rect_contains_rect (bbox_spec qs) (seg_rect sg) = true.
Proof.
  destruct sg as [a b]. intros H2 Hin. destruct (path_segs_endpoints qs a b Hin) as [Ha Hb].
  apply seg_rect_in_bbox; assumption.
Qed.

(* ringIntersectsLine (Poly.IntersectsLine without holes, Line.IntersectsPoly) *)
Theorem ring_intersects_line_pointset (ps qs : list pt) :
  ring_intersects_line (RS {| closed := true; pts := ps |}) (RS {| closed := false; pts := qs |}) true = true <->
  (3 <= length ps)%nat /\ (2 <= length qs)%nat /\
  exists sg, In sg (path_segs qs) /\ shares_point ps (fst sg) (snd sg).
Proof.
  fold (Rg ps). fold (Lr qs). unfold ring_intersects_line. rewrite Rg_empty, Lr_empty, Lr_segs, Lr_pts.
  destruct (Nat.ltb_spec (length ps) 3) as [S3|H3]; cbn [orb].
  { split; [discriminate|]. intros (? & _). lia. }
  destruct (Nat.ltb_spec (length qs) 2) as [S2|H2].
  { split; [discriminate|]. intros (_ & ? & _). lia. }
  rewrite (Rg_rect ps H3), (Lr_rect qs H2). unfold Rg. split.
  - destruct (rect_intersects_rect (bbox_spec ps) (bbox_spec qs)); cbn [negb]; [|discriminate].
    intros H. split; [exact H3|]. split; [exact H2|].
    destruct (existsb (fun p => rcp_hit (RS {| closed := true; pts := ps |}) p true) qs) eqn:Ep.
    + apply existsb_exists in Ep. destruct Ep as (p & Hin & Hp). rewrite rcp_hit_in_ringb in Hp.
      destruct (in_path_endpoint qs p Hin H2) as ([a b] & Hs & Hab). exists (a, b). split; [exact Hs|].
      cbn [fst snd] in *. apply (shares_point_end ps a b p); [destruct Hab; auto|exact Hp].
    + apply existsb_exists in H. destruct H as ([a b] & Hs & Hm). exists (a, b). split; [exact Hs|].
      apply ring_intersects_segment_pointset. exact Hm.
  - intros (_ & _ & [a b] & Hs & Hsh). cbn [fst snd] in Hsh.
    apply ring_intersects_segment_pointset in Hsh.
    assert (Hbox : rect_intersects_rect (bbox_spec ps) (bbox_spec qs) = true).
    { pose proof Hsh as Hc. unfold ring_intersects_segment in Hc. fold (Rg ps) in Hc. rewrite (Rg_rect ps H3) in Hc.
      destruct (rect_intersects_rect (seg_rect (a, b)) (bbox_spec ps)) eqn:Er; [|discriminate Hc].
      apply (rects_meet_mono _ (bbox_spec ps) _ (seg_rect (a, b))).
      - apply rcr_refl.
      - apply line_seg_rect_in; assumption.
      - rewrite rect_intersects_rect_sym. exact Er. }
    rewrite Hbox. cbn [negb].
    destruct (existsb (fun p => rcp_hit (RS {| closed := true; pts := ps |}) p true) qs); [reflexivity|].
    apply existsb_exists. exists (a, b). split; [exact Hs|exact Hsh].
Qed.

Print Assumptions ring_intersects_line_pointset.

Lemma seg_meet_degenerate (e : seg) (a : pt) : seg_meet e (a, a) -> on_seg e a.
Proof.
  destruct e as [c d]. rewrite seg_meet_unfold. intros [H|[H|[H|[H|[_ O]]]]]; try exact H.
  - destruct H as (_ & Hx & Hy). assert (c = a) as -> by (apply pt_eq_coords; lia). apply on_seg_left.
  - destruct H as (_ & Hx & Hy). assert (d = a) as -> by (apply pt_eq_coords; lia). apply on_seg_right.
  - unfold opp in O. assert (forall p, cross a a p = 0) as Z by (intros; unfold cross; ring).
    rewrite !Z in O. lia.
Qed.

(* ringContainsSegment in strict mode: both ends strictly inside, and on a ring not flagged convex
   no edge meeting the segment *)
Lemma rcs_strict_unfold (ps : list pt) (A B : pt) :
  rcs (RS {| closed := true; pts := ps |}) (A, B) false =
  strictly_in_ringb (ring_edges ps) A && strictly_in_ringb (ring_edges ps) B &&
  (ring_convex (RS {| closed := true; pts := ps |}) || negb (existsb (fun e => seg_meetb e (A, B)) (ring_edges ps))).
Proof.
  set (E := ring_edges ps). set (r := RS {| closed := true; pts := ps |}).
  assert (Hs : forall p, rcp_hit r p false = strictly_in_ringb E p) by (intros p; apply rcp_hit_strict).
  assert (Hbb : forall p, strictly_in_ringb E p = true -> rect_contains_point (ring_rect r) p = true).
  { intros p Hp. destruct (rect_contains_point (ring_rect r) p) eqn:Er; [reflexivity|].
    pose proof (rcp_hit_gen r p false) as G. rewrite Er, Hs, Hp in G. discriminate G. }
  unfold rcs, ring_contains_segment.
  change (fst (ring_contains_point ?x ?p ?al)) with (rcp_hit x p al). fold r.
  destruct (strictly_in_ringb E A) eqn:SA.
  2:{ destruct (negb (rect_contains_point _ A) || negb (rect_contains_point _ B)); [reflexivity|].
      rewrite Hs, SA. reflexivity. }
  destruct (strictly_in_ringb E B) eqn:SB.
  2:{ destruct (negb (rect_contains_point _ A) || negb (rect_contains_point _ B)); [reflexivity|].
      rewrite Hs, SA. cbn [negb].
      destruct (pt_eqb B A) eqn:Eq; [apply pt_eqb_eq in Eq; subst B; congruence|].
      rewrite Hs, SB. reflexivity. }
  rewrite (Hbb A SA), (Hbb B SB). cbn [negb orb andb]. rewrite Hs, SA. cbn [negb].
  destruct (pt_eqb B A) eqn:Eq.
  - (* a point strictly inside lies on no edge *)
    apply pt_eqb_eq in Eq. subst B. cbn [fst]. symmetry. apply orb_true_iff. right. apply negb_true_iff.
    apply no_edge_meets_iff. intros e He Hm. apply seg_meet_degenerate in Hm.
    apply strictly_in_ringb_true_iff in SA. rewrite (on_boundary_edge E A e He Hm) in SA. destruct SA; discriminate.
  - rewrite Hs, SB. cbn [negb]. destruct (ring_convex r); [reflexivity|].
    cbn [fst orb]. f_equal. unfold ring_search, ring_segments, r. rewrite RS_segs. fold (ring_edges ps). fold E.
    rewrite (existsb_filter_irrel (fun si : seg * nat => intersects_segment (A, B) (fst si) && true)).
    2:{ intros [e i] Hk. cbn [fst] in *. destruct (intersects_segment (A, B) e) eqn:Ei; [|reflexivity].
        apply intersects_segment_iff in Ei. apply seg_meet_boxes in Ei. congruence. }
    rewrite (existsb_indexed (fun e => intersects_segment (A, B) e && true)).
    apply existsb_ext'. intros e. rewrite andb_true_r. symmetry. apply seg_meetb_intersects.
Qed.

Theorem ring_contains_segment_strict_exact (ps : list pt) (A B : pt) :
  ring_convex (RS {| closed := true; pts := ps |}) = false ->
  rcs (RS {| closed := true; pts := ps |}) (A, B) false =
  strictly_in_ringb (ring_edges ps) A && strictly_in_ringb (ring_edges ps) B &&
  negb (existsb (fun e => seg_meetb e (A, B)) (ring_edges ps)).
Proof. intros Hcv. rewrite rcs_strict_unfold, Hcv. reflexivity. Qed.

(* point-set reading: every rational point of the closed segment is strictly inside *)
Definition all_strictly_inside (ps : list pt) (A B : pt) : Prop :=
  forall k P, 0 < k -> on_seg (sc k A, sc k B) P -> strictly_in_ringb (ring_edges (map (sc k) ps)) P = true.

Lemma all_strictly_inside_ends h A B : all_strictly_inside h A B ->
  strictly_in_ringb (ring_edges h) A = true /\ strictly_in_ringb (ring_edges h) B = true.
Proof.
  intros Hall. split.
  - pose proof (Hall 1 A) as H1. rewrite !sc_1, map_sc_1 in H1. apply H1; [lia|apply on_seg_left].
  - pose proof (Hall 1 B) as H1. rewrite !sc_1, map_sc_1 in H1. apply H1; [lia|apply on_seg_right].
Qed.

Lemma strict_nomeet_all_inside (ps : list pt) (A B : pt) :
  strictly_in_ringb (ring_edges ps) A = true ->
  (forall e, In e (ring_edges ps) -> ~ seg_meet e (A, B)) ->
  all_strictly_inside ps A B.
Proof.
  intros SA N k P Hk HP. destruct (nomeet_status ps A B k P Hk N HP) as [Hb Hp].
  apply strictly_in_ringb_true_iff. split; [exact Hb|]. rewrite Hp. apply strictly_in_ringb_true_iff in SA. apply SA.
Qed.

Theorem ring_contains_segment_strict_pointset (ps : list pt) (A B : pt) :
  ring_convex (RS {| closed := true; pts := ps |}) = false ->
  (rcs (RS {| closed := true; pts := ps |}) (A, B) false = true <-> all_strictly_inside ps A B).
Proof.
  intros Hcv. rewrite (ring_contains_segment_strict_exact ps A B Hcv).
  rewrite !andb_true_iff, negb_true_iff, no_edge_meets_iff. split.
  - intros [[SA SB] Em]. apply strict_nomeet_all_inside; assumption.
  - intros Hall. split; [apply (all_strictly_inside_ends ps A B Hall)|].
    (* a meeting edge would put a boundary point on the segment *)
    intros e He Hm. destruct (meet_boundary_point ps e A B He Hm) as (k & P & Hk & HP & Hb).
    pose proof (Hall k P Hk HP) as S. apply strictly_in_ringb_true_iff in S. rewrite Hb in S. destruct S; discriminate.
Qed.

Print Assumptions ring_contains_segment_strict_exact.
Print Assumptions ring_contains_segment_strict_pointset.
