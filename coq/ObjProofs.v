(* ObjProofs.v — theorems about the object-layer model Obj.v against the
   specifications of ObjSpec.v: attributes (C11), the dispatch algebra (C09) and
   the composition laws of collections (C10). *)

From GJ Require Import Base Series SeriesSpec Ring PipProofs PairSpec Pairs PairProofs Obj ObjSpec.
Open Scope Z_scope.

Section ObjInd.
Variable P : obj -> Prop.
Hypothesis Hpoint : forall p, P (OPoint p).
Hypothesis Hsimple : forall p, P (OSimple p).
Hypothesis Hrect : forall r, P (ORect r).
Hypothesis Hline : forall ps, P (OLine ps).
Hypothesis Hpoly : forall rs, P (OPoly rs).
Hypothesis Hfeature : forall b, P b -> P (OFeature b).
Hypothesis Hcoll : forall k cs, Forall P cs -> P (OColl k cs).

Fixpoint obj_ind' (o : obj) : P o :=
  match o with
  | OPoint p => Hpoint p
  | OSimple p => Hsimple p
  | ORect r => Hrect r
  | OLine ps => Hline ps
  | OPoly rs => Hpoly rs
  | OFeature b => Hfeature b (obj_ind' b)
  | OColl k cs =>
      Hcoll k cs ((fix go (l : list obj) : Forall P l :=
                     match l with
                     | [] => Forall_nil P
                     | c :: r => Forall_cons c (obj_ind' c) (go r)
                     end) cs)
  end.
End ObjInd.

Lemma flat_map_nil_iff {A B} (f : A -> list B) (l : list A) :
  flat_map f l = [] <-> forall x, In x l -> f x = [].
Proof.
  induction l as [|a l IH]; cbn [flat_map].
  - split; [intros _ x []|reflexivity].
  - split.
    + intros H. apply app_eq_nil in H. destruct H as [H1 H2]. intros x [<-|Hx]; [exact H1|].
      apply IH; assumption.
    + intros H. rewrite (H a (or_introl eq_refl)). apply IH. intros x Hx. apply H. right; exact Hx.
Qed.

Lemma line_empty_eq ps : series_empty (mk_line ps) = (length ps <? 2)%nat.
Proof. reflexivity. Qed.

Lemma poly_empty_eq rs :
  poly_empty (mk_poly rs) = match rs with [] => true | e :: _ => (length e <? 3)%nat end.
Proof. destruct rs as [|e hs]; [apply (Rg_empty [])|apply (Rg_empty e)]. Qed.

(* Empty() = no part occupies space *)
Theorem o_empty_spec (o : obj) : o_empty o = spec_empty o.
Proof.
  induction o as [p|p|r|ps|rs|b IH|k cs IH] using obj_ind'; unfold spec_empty; cbn [o_empty positions];
    try reflexivity.
  - rewrite line_empty_eq. destruct (Nat.ltb_spec (length ps) 2); [reflexivity|].
    destruct ps; [cbn in *; lia|reflexivity].
  - rewrite poly_empty_eq. destruct rs as [|e hs]; [reflexivity|].
    destruct (Nat.ltb_spec (length e) 3); [reflexivity|]. destruct e; [cbn in *; lia|reflexivity].
  - exact IH.
  - induction cs as [|c cs IHcs]; [reflexivity|].
    cbn [forallb flat_map]. inversion IH as [|? ? Hc Hcs]; subst.
    rewrite Hc. unfold spec_empty at 1. destruct (positions c) eqn:E; cbn [andb app].
    + apply IHcs. exact Hcs.
    + reflexivity.
Qed.

Lemma forallb_flat_map {A B} (f : B -> bool) (g : A -> list B) (l : list A) :
  forallb f (flat_map g l) = forallb (fun x => forallb f (g x)) l.
Proof.
  induction l as [|a l IH]; [reflexivity|]. cbn [flat_map forallb]. rewrite forallb_app, IH. reflexivity.
Qed.

Lemma forallb_concat {A} (f : A -> bool) (ll : list (list A)) :
  forallb f (concat ll) = forallb (forallb f) ll.
Proof.
  induction ll as [|l ll IH]; [reflexivity|]. cbn [concat forallb]. rewrite forallb_app, IH. reflexivity.
Qed.

Lemma forallb_ext_in {A} (f g : A -> bool) (l : list A) :
  Forall (fun x => f x = g x) l -> forallb f l = forallb g l.
Proof. induction 1 as [|x l Hx Hl IH]; [reflexivity|]. cbn [forallb]. rewrite Hx, IH. reflexivity. Qed.

(* Valid() = every position (occupied or not) is in range *)
Theorem o_valid_spec (l180 l90 : Z) (o : obj) : o_valid l180 l90 o = spec_valid l180 l90 o.
Proof.
  unfold spec_valid.
  induction o as [p|p|r|ps|rs|b IH|k cs IH] using obj_ind'; cbn [o_valid all_positions forallb].
  - unfold pt_valid. rewrite andb_true_r. reflexivity.
  - unfold pt_valid. rewrite andb_true_r. reflexivity.
  - unfold rect_valid, pt_valid. rewrite andb_true_r. reflexivity.
  - reflexivity.
  - rewrite forallb_concat. reflexivity.
  - exact IH.
  - rewrite forallb_flat_map. apply forallb_ext_in. exact IH.
Qed.

Lemma fold_right_len_concat (rs : list (list pt)) :
  fold_right (fun r acc => Z.of_nat (length r) + acc) 0 rs = Z.of_nat (length (concat rs)).
Proof.
  induction rs as [|r rs IH]; [reflexivity|]. cbn [fold_right concat]. rewrite app_length, IH. lia.
Qed.

Theorem o_npoints_spec (o : obj) : o_npoints o = spec_npoints o.
Proof.
  induction o as [p|p|r|ps|rs|b IH|k cs IH] using obj_ind'; cbn [o_npoints spec_npoints]; try reflexivity.
  - apply fold_right_len_concat.
  - exact IH.
  - induction IH as [|c cs Hc Hcs IHcs]; [reflexivity|]. cbn [fold_right map]. rewrite Hc, IHcs. reflexivity.
Qed.

Theorem within_is_contains_swapped (a b : obj) : o_within a b = o_contains b a.
Proof. reflexivity. Qed.

(* a Feature answers as its geometry: as receiver ... *)
Theorem feature_receiver_contains (a b : obj) : o_contains (OFeature a) b = o_contains a b.
Proof. reflexivity. Qed.
Theorem feature_receiver_intersects (a b : obj) : o_intersects (OFeature a) b = o_intersects a b.
Proof. reflexivity. Qed.
Theorem feature_attrs (a : obj) :
  o_empty (OFeature a) = o_empty a /\ o_rect (OFeature a) = o_rect a /\ o_npoints (OFeature a) = o_npoints a
  /\ forall l180 l90, o_valid l180 l90 (OFeature a) = o_valid l180 l90 a.
Proof. repeat split; reflexivity. Qed.

(* ... and as argument of the Spatial methods *)
Theorem feature_within_g (b : obj) (g : gshape) : o_within_g (OFeature b) g = o_within_g b g.
Proof. reflexivity. Qed.
Theorem feature_intersects_g (b : obj) (g : gshape) : o_intersects_g (OFeature b) g = o_intersects_g b g.
Proof. reflexivity. Qed.

Lemma existsb_ext_in {A} (f g : A -> bool) (l : list A) :
  Forall (fun x => f x = g x) l -> existsb f l = existsb g l.
Proof. induction 1 as [|x l Hx Hl IH]; [reflexivity|]. cbn [existsb]. rewrite Hx, IH. reflexivity. Qed.

(* two arguments that are single parts of themselves and answer alike to every geometry
   (WithinX, IntersectsX, Rect, Empty) are interchangeable as arguments of Contains and Intersects *)
Lemma argument_swap (x y : obj) :
  (forall g, o_within_g x g = o_within_g y g) -> (forall g, o_intersects_g x g = o_intersects_g y g) ->
  o_rect x = o_rect y -> o_empty x = o_empty y ->
  for_each_part x = [x] -> for_each_part y = [y] -> for_each x = [x] -> for_each y = [y] ->
  forall a, o_contains a x = o_contains a y /\ o_intersects a x = o_intersects a y.
Proof.
  intros Hw Hi Hr He Px Py Fx Fy.
  induction a as [p|p|r|ps|rs|a IH|k cs IH] using obj_ind'; cbn [o_contains o_intersects]; try (split; [apply Hw|apply Hi]).
  - exact IH.
  - unfold nonempty_parts_c, nonempty_parts. rewrite Px, Py, Fx, Fy. cbn [filter]. rewrite He.
    destruct (negb (o_empty y)); [|destruct (forallb o_empty cs); split; reflexivity].
    cbn [forallb existsb]. rewrite Hr. split.
    + destruct (forallb o_empty cs); [reflexivity|]. f_equal.
      apply existsb_ext_in. eapply Forall_impl; [|exact IH]. intros c [Hc _]. cbv beta. rewrite Hc. reflexivity.
    + f_equal. apply existsb_ext_in. eapply Forall_impl; [|exact IH]. intros c [_ Hc]. cbv beta. rewrite Hc. reflexivity.
Qed.

(* what does not end in a collection is a single part of itself, for forEachPart and for ForEach *)
Lemma atomic_parts (b : obj) : ends_in_coll b = false -> for_each_part b = [b] /\ for_each b = [b].
Proof. destruct b; cbn [ends_in_coll for_each_part]; intros H; try discriminate H; rewrite ?H; split; reflexivity. Qed.

(* a Feature that wraps a non-collection answers as its geometry also as argument of Contains / Intersects *)
Lemma feature_argument (a b : obj) : ends_in_coll b = false ->
  o_contains a (OFeature b) = o_contains a b /\ o_intersects a (OFeature b) = o_intersects a b.
Proof.
  intros Hb. destruct (atomic_parts b Hb) as [Pb Fb], (atomic_parts (OFeature b) Hb) as [Pf Ff].
  apply argument_swap; try reflexivity; assumption.
Qed.

Theorem feature_argument_contains (a b : obj) :
  ends_in_coll b = false -> o_contains a (OFeature b) = o_contains a b.
Proof. intros Hb. apply (feature_argument a b Hb). Qed.

Theorem feature_argument_intersects (a b : obj) :
  ends_in_coll b = false -> o_intersects a (OFeature b) = o_intersects a b.
Proof. intros Hb. apply (feature_argument a b Hb). Qed.

(* a SimplePoint answers as the equivalent Point: receiver (definitional) and argument *)
Theorem simplepoint_receiver (p : pt) (b : obj) :
  o_contains (OSimple p) b = o_contains (OPoint p) b /\ o_intersects (OSimple p) b = o_intersects (OPoint p) b.
Proof. split; reflexivity. Qed.

Theorem simplepoint_argument (a : obj) (p : pt) :
  o_contains a (OSimple p) = o_contains a (OPoint p) /\ o_intersects a (OSimple p) = o_intersects a (OPoint p).
Proof. apply argument_swap; reflexivity. Qed.

(* leaf objects answer as the geometry-level predicates on their base geometry *)
Lemma obj_leaf_ind (P : obj -> Prop) :
  (forall o g, leaf_geom o = Some g -> P o) -> (forall b, P b -> P (OFeature b)) ->
  (forall k cs, Forall P cs -> P (OColl k cs)) -> forall o, P o.
Proof. intros Hl Hf Hc. induction o using obj_ind'; try (eapply Hl; reflexivity); auto. Qed.

Lemma leaf_o_within_g (o : obj) (go g : gshape) : leaf_geom o = Some go -> o_within_g o g = gcb g go.
Proof. destruct o; cbn [leaf_geom]; intros H; inversion H; reflexivity. Qed.
Lemma leaf_o_contains (o : obj) (go : gshape) (b : obj) : leaf_geom o = Some go -> o_contains o b = o_within_g b go.
Proof. destruct o; cbn [leaf_geom]; intros H; inversion H; reflexivity. Qed.
Lemma leaf_o_intersects_g (o : obj) (go g : gshape) : leaf_geom o = Some go -> o_intersects_g o g = g_intersects go g.
Proof. destruct o; cbn [leaf_geom]; intros H; inversion H; reflexivity. Qed.
Lemma leaf_o_intersects (o : obj) (go : gshape) (b : obj) : leaf_geom o = Some go -> o_intersects o b = o_intersects_g b go.
Proof. destruct o; cbn [leaf_geom]; intros H; inversion H; reflexivity. Qed.

Lemma leaf_g_rect (o : obj) (g : gshape) : leaf_geom o = Some g -> g_rect g = o_rect o.
Proof.
  destruct o; cbn [leaf_geom]; intros H; inversion H; cbn [g_rect o_rect]; try reflexivity.
  unfold ring_rect. apply RS_rect.
Qed.

Lemma leaf_parts (o : obj) (g : gshape) : leaf_geom o = Some g ->
  for_each o = [o] /\ for_each_part o = [o] /\ ends_in_coll o = false.
Proof. destruct o; intros [=]; repeat split. Qed.

(* the base geometry of a LineString or Polygon, as the pair theorems name it *)
Lemma g_of_line (ps : list pt) : g_of_shape (SLine ps) = GLine (Lr ps).
Proof. reflexivity. Qed.
Lemma g_of_poly (e : list pt) (hs : list (list pt)) : g_of_shape (SPoly e hs) = GPoly (Pg e hs).
Proof. reflexivity. Qed.

Theorem leaf_contains (a b : obj) (ga gb : gshape) :
  leaf_geom a = Some ga -> leaf_geom b = Some gb -> o_contains a b = gcb ga gb.
Proof. intros Ha Hb. rewrite (leaf_o_contains a ga b Ha). apply (leaf_o_within_g b gb ga Hb). Qed.

Theorem leaf_intersects (a b : obj) (ga gb : gshape) :
  leaf_geom a = Some ga -> leaf_geom b = Some gb -> o_intersects a b = g_intersects gb ga.
Proof. intros Ha Hb. rewrite (leaf_o_intersects a ga b Ha). apply (leaf_o_intersects_g b gb ga Hb). Qed.

Theorem coll_empty_spec k cs : o_empty (OColl k cs) = forallb o_empty cs.
Proof. reflexivity. Qed.

Theorem coll_npoints_spec k cs : o_npoints (OColl k cs) = fold_right Z.add 0 (map o_npoints cs).
Proof.
  cbn [o_npoints]. induction cs as [|c cs IH]; [reflexivity|]. cbn [fold_right map]. rewrite IH. reflexivity.
Qed.

Lemma in_combine_seq {A} (cs : list A) : forall s c j,
  In (c, j) (combine cs (seq s (length cs))) <-> (s <= j)%nat /\ nth_error cs (j - s) = Some c.
Proof.
  induction cs as [|x cs IH]; intros s c j; cbn [length seq combine].
  - split; [intros []|]. intros [_ H]. destruct (j - s)%nat; discriminate.
  - cbn [In]. rewrite IH. split.
    + intros [E|[H1 H2]].
      * inversion E; subst. split; [lia|]. rewrite Nat.sub_diag. reflexivity.
      * split; [lia|]. replace (j - s)%nat with (S (j - S s)) by lia. exact H2.
    + intros [H1 H2]. destruct (Nat.eq_dec j s) as [->|Hne].
      * rewrite Nat.sub_diag in H2. cbn in H2. inversion H2; subst. left; reflexivity.
      * right. split; [lia|]. replace (j - s)%nat with (S (j - S s)) in H2 by lia. exact H2.
Qed.

(* Search visits a child when it is not empty and its rectangle meets the query *)
Lemma visits_iff (e : bool) (r q : rect) : visits e r q = true <-> e = false /\ rect_intersects_rect r q = true.
Proof. unfold visits. rewrite andb_true_iff, negb_true_iff. reflexivity. Qed.

Lemma visits_and (e b : bool) (r q : rect) :
  visits e r q && b = true <-> e = false /\ rect_intersects_rect r q = true /\ b = true.
Proof. rewrite andb_true_iff, visits_iff. tauto. Qed.

Lemma visit_some (f : obj -> bool) (q : rect) (cs : list obj) :
  existsb (fun c => visits (o_empty c) (o_rect c) q && f c) cs = true <->
  exists c, In c cs /\ o_empty c = false /\ rect_intersects_rect (o_rect c) q = true /\ f c = true.
Proof. rewrite existsb_exists. split; intros (c & Hc & H); exists c; (split; [exact Hc|apply visits_and, H]). Qed.

Lemma in_nonempty (l : list obj) (p : obj) :
  In p (filter (fun g => negb (o_empty g)) l) <-> In p l /\ o_empty p = false.
Proof. rewrite filter_In, negb_true_iff. reflexivity. Qed.

(* Search reports exactly the non-empty children whose rectangle meets the query *)
Theorem coll_search_spec (cs : list obj) (q : rect) (i : nat) :
  In i (o_search cs q) <->
  exists c, nth_error cs i = Some c /\ o_empty c = false /\ rect_intersects_rect (o_rect c) q = true.
Proof.
  unfold o_search. rewrite in_map_iff. split.
  - intros ([c j] & E & Hin). cbn [snd] in E. subst j. apply filter_In in Hin. destruct Hin as [Hin Hv].
    apply in_combine_seq in Hin. destruct Hin as [_ Hin]. rewrite Nat.sub_0_r in Hin.
    exists c. split; [exact Hin|apply visits_iff, Hv].
  - intros (c & Hn & Hv). exists (c, i). split; [reflexivity|]. apply filter_In. split.
    + apply in_combine_seq. split; [lia|]. rewrite Nat.sub_0_r. exact Hn.
    + apply visits_iff, Hv.
Qed.

Lemma NoDup_map_filter {A B} (g : A -> B) (P : A -> bool) (m : list A) : NoDup (map g m) -> NoDup (map g (filter P m)).
Proof.
  induction m as [|x m IH]; cbn [map filter]; intros H; [exact H|]. inversion H as [|? ? Hx Hm]; subst.
  destruct (P x); cbn [map]; [|apply IH, Hm]. constructor; [|apply IH, Hm].
  intros Hin. apply Hx. apply in_map_iff in Hin. destruct Hin as (y & E & Hy). apply filter_In in Hy.
  apply in_map_iff. exists y. tauto.
Qed.

Lemma map_snd_combine_seq {A} (l : list A) : forall s, map snd (combine l (seq s (length l))) = seq s (length l).
Proof. induction l as [|x l IH]; intros s; [reflexivity|]. cbn [length seq combine map snd]. rewrite IH. reflexivity. Qed.

(* ... each once: the reported indexes are a sublist of 0, 1, ..., n-1 *)
Theorem coll_search_nodup (cs : list obj) (q : rect) : NoDup (o_search cs q).
Proof. apply NoDup_map_filter. rewrite map_snd_combine_seq. apply seq_NoDup. Qed.

(* the first k reports are k in number, or all of them when there are fewer *)
Theorem coll_search_early_stop (cs : list obj) (q : rect) (k : nat) :
  length (firstn k (o_search cs q)) = Nat.min k (length (o_search cs q)).
Proof. apply firstn_length. Qed.

(* intersects X: some non-empty child (whose rectangle meets the part's) intersects
   some non-empty part of X *)
Theorem coll_intersects_spec k cs x :
  o_intersects (OColl k cs) x = true <->
  exists c p, In c cs /\ In p (for_each x) /\ o_empty c = false /\ o_empty p = false /\
              rect_intersects_rect (o_rect c) (o_rect p) = true /\ o_intersects c p = true.
Proof.
  cbn [o_intersects]. rewrite existsb_exists. split.
  - intros (p & Hp & H). apply in_nonempty in Hp. apply visit_some in H. destruct H as (c & H). exists c, p. tauto.
  - intros (c & p & H). exists p. split; [apply in_nonempty; tauto|]. apply visit_some. exists c. tauto.
Qed.

(* contains X: non-empty, X has a non-empty part, and every non-empty part of X is
   contained by some non-empty child (whose rectangle meets the part's) *)
Theorem coll_contains_spec k cs x :
  o_contains (OColl k cs) x = true <->
  o_empty (OColl k cs) = false /\ nonempty_parts_c x <> [] /\
  forall p, In p (nonempty_parts_c x) ->
    exists c, In c cs /\ o_empty c = false /\ rect_intersects_rect (o_rect c) (o_rect p) = true /\ o_contains c p = true.
Proof.
  cbn [o_contains o_empty]. destruct (forallb o_empty cs); [split; [discriminate|intros [H _]; discriminate]|].
  destruct (nonempty_parts_c x) as [|p0 ps] eqn:E.
  - split; [discriminate|]. intros (_ & H & _). congruence.
  - rewrite forallb_forall. split.
    + intros H. split; [reflexivity|]. split; [discriminate|]. intros p Hp. apply visit_some, H, Hp.
    + intros (_ & _ & H) p Hp. apply visit_some, H, Hp.
Qed.

(* within a geometry X: non-empty and every child is non-empty, meets X's rectangle and is within X *)
Theorem coll_within_spec k cs g :
  o_within_g (OColl k cs) g = true <->
  o_empty (OColl k cs) = false /\
  forall c, In c cs -> o_empty c = false /\ rect_intersects_rect (o_rect c) (g_rect g) = true /\ o_within_g c g = true.
Proof.
  cbn [o_within_g o_empty]. rewrite andb_true_iff, negb_true_iff, forallb_forall.
  split; intros [H1 H2]; (split; [exact H1|]); intros c Hc; apply visits_and, H2, Hc.
Qed.

Print Assumptions o_empty_spec.
Print Assumptions o_valid_spec.
Print Assumptions coll_search_spec.
Print Assumptions coll_contains_spec.
Print Assumptions feature_argument_contains.

Lemma fold_left_assoc {A} (op : A -> A -> A) : (forall x y z, op x (op y z) = op (op x y) z) ->
  forall l a b, fold_left op l (op a b) = op a (fold_left op l b).
Proof. intros Hop. induction l as [|x l IH]; intros a b; cbn [fold_left]; [reflexivity|]. rewrite <- Hop. apply IH. Qed.

Lemma min_list_app (f : pt -> Z) p r q r' :
  min_list (f p) (map f (r ++ q :: r')) = Z.min (min_list (f p) (map f r)) (min_list (f q) (map f r')).
Proof.
  unfold min_list. rewrite map_app, fold_left_app. cbn [map fold_left].
  rewrite (fold_left_assoc Z.min Z.min_assoc). reflexivity.
Qed.
Lemma max_list_app (f : pt -> Z) p r q r' :
  max_list (f p) (map f (r ++ q :: r')) = Z.max (max_list (f p) (map f r)) (max_list (f q) (map f r')).
Proof.
  unfold max_list. rewrite map_app, fold_left_app. cbn [map fold_left].
  rewrite (fold_left_assoc Z.max Z.max_assoc). reflexivity.
Qed.

Lemma if_ltb_min (a b : Z) : (if b <? a then b else a) = Z.min a b.
Proof. destruct (Z.ltb_spec b a); lia. Qed.
Lemma if_ltb_max (a b : Z) : (if a <? b then b else a) = Z.max a b.
Proof. destruct (Z.ltb_spec a b); lia. Qed.

Lemma union_rects_minmax (a b : rect) :
  union_rects a b =
  ((Z.min (px (fst a)) (px (fst b)), Z.min (py (fst a)) (py (fst b))),
   (Z.max (px (snd a)) (px (snd b)), Z.max (py (snd a)) (py (snd b)))).
Proof.
  destruct a as [[a1 a2] [a3 a4]], b as [[b1 b2] [b3 b4]]. unfold union_rects, px, py. cbn [fst snd].
  rewrite !if_ltb_min, !if_ltb_max. reflexivity.
Qed.

(* the union of two tight boxes is the tight box of the concatenation *)
Lemma union_bbox (l1 l2 : list pt) : l1 <> [] -> l2 <> [] ->
  union_rects (bbox_spec l1) (bbox_spec l2) = bbox_spec (l1 ++ l2).
Proof.
  intros H1 H2. destruct l1 as [|p r]; [congruence|]. destruct l2 as [|q r']; [congruence|].
  rewrite union_rects_minmax. cbn [bbox_spec app fst snd]. unfold px at 1 2 5 6, py at 1 2 5 6. cbn [fst snd].
  rewrite (min_list_app px), (min_list_app py), (max_list_app px), (max_list_app py). reflexivity.
Qed.

(* every ORect of the tree has min <= max *)
Fixpoint obj_wf (o : obj) : Prop :=
  match o with
  | ORect r => rect_wf r
  | OFeature b => obj_wf b
  | OColl _ cs => (fix all (l : list obj) : Prop := match l with [] => True | c :: r => obj_wf c /\ all r end) cs
  | _ => True
  end.

Lemma obj_wf_coll k cs : obj_wf (OColl k cs) <-> Forall obj_wf cs.
Proof.
  cbn [obj_wf]. induction cs as [|c cs IH]; [split; [constructor|trivial]|].
  split.
  - intros [H1 H2]. constructor; [exact H1|]. apply IH. exact H2.
  - intros H. inversion H; subst. split; [assumption|]. apply IH. assumption.
Qed.

Lemma obj_wf_child k cs c : obj_wf (OColl k cs) -> In c cs -> obj_wf c.
Proof. intros Hw. apply obj_wf_coll in Hw. rewrite Forall_forall in Hw. apply Hw. Qed.

Lemma spec_empty_false_iff o : spec_empty o = false <-> positions o <> [].
Proof. unfold spec_empty. destruct (positions o); split; congruence. Qed.

Lemma nonempty_has_position (o : obj) : o_empty o = false -> positions o <> [].
Proof. rewrite o_empty_spec. apply spec_empty_false_iff. Qed.

Lemma pos_nonempty (o : obj) (p : pt) : In p (positions o) -> o_empty o = false.
Proof. intros Hp. rewrite o_empty_spec. apply spec_empty_false_iff. intros E. rewrite E in Hp. exact Hp. Qed.

Lemma forallb_false {A} (f : A -> bool) (l : list A) : forallb f l = false <-> exists x, In x l /\ f x = false.
Proof.
  induction l as [|a l IH]; cbn [forallb].
  - split; [discriminate|intros (x & [] & _)].
  - rewrite andb_false_iff, IH. split.
    + intros [H|(x & Hx & H)]; [exists a; split; [left; reflexivity|exact H]|exists x; split; [right; exact Hx|exact H]].
    + intros (x & [<-|Hx] & H); [left; exact H|right; exists x; split; assumption].
Qed.

Lemma flat_map_parts {A B} (f : A -> list B) (g : A -> list A) (cs : list A) :
  Forall (fun c => flat_map f (g c) = f c) cs -> flat_map f (flat_map g cs) = flat_map f cs.
Proof. induction 1 as [|c cs Hc _ IH]; [reflexivity|]. cbn [flat_map]. rewrite flat_map_app, Hc, IH. reflexivity. Qed.

(* ForEach and forEachPart both cut a tree into parts that together have what the tree has leaf by
   leaf: its positions, its leaves *)
Lemma parts_cover {X} (h : obj -> list X) :
  (forall b, h (OFeature b) = h b) -> (forall k cs, h (OColl k cs) = flat_map h cs) ->
  forall b, flat_map h (for_each b) = h b /\ flat_map h (for_each_part b) = h b.
Proof.
  intros Hf Hc. induction b as [o g E|b IH|k cs IH] using obj_leaf_ind.
  - destruct (leaf_parts o g E) as (-> & -> & _). split; apply app_nil_r.
  - cbn [for_each for_each_part]. destruct (ends_in_coll b); cbn [flat_map]; rewrite ?app_nil_r; [rewrite Hf|]; tauto.
  - cbn [for_each for_each_part]. rewrite Hc.
    split; apply flat_map_parts; (eapply Forall_impl; [|exact IH]); intros c Hp; apply Hp.
Qed.

Lemma positions_for_each (b : obj) : flat_map positions (for_each b) = positions b.
Proof. apply (parts_cover positions); reflexivity. Qed.

Lemma positions_for_each_part (b : obj) : flat_map positions (for_each_part b) = positions b.
Proof. apply (parts_cover positions); reflexivity. Qed.

(* the single-child shortcut of parseInitRectIndex never decides anything: with one child the
   count is still 0 when the child is seen *)
Lemma coll_rect_step_many (n : nat) (st : nat * rect) (er : bool * rect) : n <> 1%nat ->
  coll_rect_step n st er = coll_rect_step 0 st er.
Proof.
  intros H. destruct st as [count prect], er as [e r]. unfold coll_rect_step.
  destruct (Nat.eqb_spec n 1); [contradiction|reflexivity].
Qed.

Lemma coll_rect_any (ers : list (bool * rect)) : coll_rect ers = snd (fold_left (coll_rect_step 0) ers (0%nat, zrect)).
Proof.
  unfold coll_rect. destruct ers as [|x [|y l]]; [reflexivity|destruct x as [[|] r]; reflexivity|].
  assert (G : forall m st, fold_left (coll_rect_step (length (x :: y :: l))) m st = fold_left (coll_rect_step 0) m st).
  { induction m as [|z m IH]; intros st; [reflexivity|]. cbn [fold_left].
    rewrite coll_rect_step_many by (cbn [length]; lia). apply IH. }
  rewrite G. reflexivity.
Qed.

(* the cached rectangle of a collection: pre = the positions of the children already seen *)
Lemma coll_rect_fold (cs : list obj) :
  Forall (fun c => o_empty c = false -> o_rect c = bbox_spec (positions c)) cs ->
  forall (pre : list pt) (count : nat) (prect : rect),
    (count = 0%nat <-> pre = []) -> (pre <> [] -> prect = bbox_spec pre) -> pre ++ flat_map positions cs <> [] ->
    snd (fold_left (coll_rect_step 0) (map (fun c => (o_empty c, o_rect c)) cs) (count, prect))
    = bbox_spec (pre ++ flat_map positions cs).
Proof.
  intros HF. induction HF as [|c cs Hc _ IH]; intros pre count prect Hz Hr Hne; cbn [map fold_left flat_map] in *.
  - rewrite app_nil_r in *. apply Hr, Hne.
  - destruct (o_empty c) eqn:Ec.
    + assert (Ep : positions c = []).
      { rewrite o_empty_spec in Ec. unfold spec_empty in Ec. destruct (positions c); [reflexivity|discriminate]. }
      rewrite Ep in *. apply IH; assumption.
    + specialize (Hc eq_refl). pose proof (nonempty_has_position c Ec) as Ep. unfold coll_rect_step at 2.
      destruct (Nat.eqb_spec count 0) as [E0|E0].
      * assert (pre = []) by (apply Hz, E0). subst pre. cbn [app] in *.
        apply (IH (positions c) (S count) (o_rect c)); [split; [discriminate|contradiction]|intros _; exact Hc|exact Hne].
      * assert (Hpre : pre <> []) by (intros E; apply E0, Hz, E). cbn [Nat.eqb]. rewrite app_assoc in *.
        apply (IH (pre ++ positions c) (S count) (union_rects prect (o_rect c))); [split; [discriminate|]| |exact Hne].
        -- intros E. apply app_eq_nil in E. tauto.
        -- intros _. rewrite (Hr Hpre), Hc. apply union_bbox; assumption.
Qed.

Theorem o_rect_spec (o : obj) : obj_wf o -> o_empty o = false -> o_rect o = bbox_spec (positions o).
Proof.
  induction o as [p|p|r|ps|rs|b IH|k cs IH] using obj_ind'; intros Hw He; cbn [o_rect positions].
  - destruct p; reflexivity.
  - destruct p; reflexivity.
  - destruct r as [[a b] [c d]]. destruct Hw as [H1 H2]. unfold px, py in *. cbn [fst snd] in *.
    unfold bbox_spec, min_list, max_list, px, py. cbn [map fold_left fst snd].
    rewrite !Z.min_l, !Z.max_r by lia. reflexivity.
  - cbn [o_empty] in He. rewrite line_empty_eq in He. rewrite He. apply Nat.ltb_ge in He.
    rewrite <- (RS_rect (mk_line ps)). exact (Lr_rect ps He).
  - cbn [o_empty] in He. rewrite poly_empty_eq in He. destruct rs as [|e hs]; [discriminate|]. rewrite He.
    apply Nat.ltb_ge in He. exact (Rg_rect e He).
  - apply IH; assumption.
  - rewrite coll_rect_any. apply (coll_rect_fold cs) with (pre := []).
    + apply obj_wf_coll in Hw. rewrite Forall_forall in *. intros c Hc Ec. apply IH; auto.
    + split; reflexivity.
    + intros H; congruence.
    + apply (nonempty_has_position (OColl k cs) He).
Qed.

(* Center() = the midpoint of that box (twice it, to stay on the grid), the position itself for points *)
Theorem o_center_spec (o : obj) : obj_wf o -> o_empty o = false -> o_center2 o = spec_center2 o.
Proof.
  intros Hw He. destruct o; try reflexivity;
    unfold o_center2, spec_center2, spec_rect, rect_center2; rewrite (o_rect_spec _ Hw He);
    cbv zeta; f_equal; lia.
Qed.

Print Assumptions o_rect_spec.
Print Assumptions o_center_spec.
