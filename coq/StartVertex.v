(* StartVertex.v — property C12: point membership in a ring (and in a polygon with holes), and through
   the point-set theorems the Intersects answers of ring x segment / line / ring, do not depend on the
   vertex the ring starts at nor on its winding direction.  Rotating or reversing the vertex list
   permutes the edge cycle (reversal also swaps the ends of every edge); boundary test and crossing
   parity are symmetric functions of the edges. *)
From Coq Require Import Sorting.Permutation.
From GJ Require Import Base KernelSpec Series SeriesSpec Ring RingSpec KernelProofs SeriesProofs PipProofs
  PairProofs Invariance Jordan JordanQ JordanRing.
Open Scope Z_scope.

(* the edge cycle through a vertex list given without the repeated closing point *)
Definition cyc_edges (vs : list pt) : list seg := path_segs (vs ++ [hd pt0 vs]).

Lemma cyc_rot1 (a : pt) (r : list pt) : r <> [] -> Permutation (cyc_edges (r ++ [a])) (cyc_edges (a :: r)).
Proof.
  intros Hr. unfold cyc_edges.
  assert (Hh : hd pt0 (r ++ [a]) = hd pt0 r) by (destruct r; [congruence|reflexivity]).
  rewrite Hh. cbn [hd].
  rewrite (path_segs_snoc (r ++ [a]) (hd pt0 r)) by (destruct r; discriminate). rewrite last_last.
  change ((a :: r) ++ [a]) with (a :: (r ++ [a])).
  destruct r as [|y r']; [congruence|]. change (a :: (y :: r') ++ [a]) with (a :: y :: (r' ++ [a])).
  rewrite path_segs_cons2. cbn [hd]. change (y :: r' ++ [a]) with ((y :: r') ++ [a]).
  apply Permutation_sym. apply Permutation_cons_append.
Qed.

Lemma cyc_split (l1 : list pt) : forall l2, Permutation (cyc_edges (l2 ++ l1)) (cyc_edges (l1 ++ l2)).
Proof.
  induction l1 as [|a l1 IH]; intros l2; [rewrite app_nil_r; apply Permutation_refl|].
  replace (l2 ++ a :: l1) with ((l2 ++ [a]) ++ l1) by (rewrite <- app_assoc; reflexivity).
  eapply Permutation_trans; [apply IH|]. rewrite app_assoc.
  change ((a :: l1) ++ l2) with (a :: (l1 ++ l2)).
  destruct (l1 ++ l2) as [|x t] eqn:E.
  - apply Permutation_refl.
  - apply cyc_rot1. discriminate.
Qed.

Lemma cyc_rot (k : nat) (vs : list pt) : Permutation (cyc_edges (rot k vs)) (cyc_edges vs).
Proof.
  unfold rot. set (m := (k mod length vs)%nat).
  rewrite <- (firstn_skipn m vs) at 3. apply cyc_split.
Qed.

(* boundary test and parity are symmetric in the edges *)
Lemma ring_tests_perm (E E' : list seg) (p : pt) : Permutation E E' ->
  in_ringb E p = in_ringb E' p /\ strictly_in_ringb E p = strictly_in_ringb E' p.
Proof.
  intros H. unfold in_ringb, strictly_in_ringb, on_boundaryb.
  rewrite !parityb_xfold, (existsb_perm _ _ _ H), (xfold_perm _ _ _ H). split; reflexivity.
Qed.

(* a ring whose vertex list repeats the first point at the end has the same cycle but for a
   degenerate edge (a, a) next to an edge from a: no ray crosses it, and a point on it is a *)
Lemma ring_tests_loop (a b : pt) (E : list seg) (p : pt) : let E' : list seg := (a, b) :: E in
  on_boundaryb (E' ++ [(a, a)]) p = on_boundaryb E' p /\ parityb (E' ++ [(a, a)]) p = parityb E' p.
Proof.
  intros E'. split.
  - unfold on_boundaryb, E'. rewrite existsb_app. cbn [existsb]. rewrite orb_false_r.
    destruct (on_segb (a, a) p) eqn:Ha; [|apply orb_false_r].
    replace (on_segb (a, b) p) with true; [reflexivity|]. symmetry.
    apply on_segb_iff in Ha. destruct Ha as (_ & Hx & Hy). rewrite Z.min_id, Z.max_id in Hx, Hy.
    apply on_segb_iff. unfold on_seg, cross. replace (px p) with (px a) by lia. replace (py p) with (py a) by lia.
    split; [ring|lia].
  - rewrite !parityb_xfold, xfold_app. unfold xfold at 2. cbn [fold_right].
    replace (crossesb (a, a) p) with false; [apply xorb_false_r|].
    symmetry. apply not_true_is_false. rewrite crossesb_iff. unfold crosses. lia.
Qed.

Lemma ring_tests_cyc (vs : list pt) (p : pt) : (3 <= length vs)%nat ->
  in_ringb (ring_edges vs) p = in_ringb (cyc_edges vs) p /\
  strictly_in_ringb (ring_edges vs) p = strictly_in_ringb (cyc_edges vs) p.
Proof.
  intros H3. unfold cyc_edges. rewrite ring_edges_eq, path_segs_snoc by (intros ->; cbn in H3; lia).
  destruct (Nat.ltb_spec (length vs) 3) as [?|_]; [lia|].
  destruct (pt_eqb (last vs pt0) (hd pt0 vs)) eqn:E; [|split; reflexivity].
  apply pt_eqb_eq in E. rewrite E, app_nil_r.
  destruct vs as [|a [|b r]]; [cbn in H3; lia..|]. cbn [hd]. rewrite path_segs_cons2.
  destruct (ring_tests_loop a b (path_segs (b :: r)) p) as [B P].
  unfold in_ringb, strictly_in_ringb. rewrite B, P. split; reflexivity.
Qed.

Lemma ring_tests_by_cyc (ws vs : list pt) (p : pt) : length ws = length vs ->
  in_ringb (cyc_edges ws) p = in_ringb (cyc_edges vs) p /\
  strictly_in_ringb (cyc_edges ws) p = strictly_in_ringb (cyc_edges vs) p ->
  in_ringb (ring_edges ws) p = in_ringb (ring_edges vs) p /\
  strictly_in_ringb (ring_edges ws) p = strictly_in_ringb (ring_edges vs) p.
Proof.
  intros Hl H. destruct (Nat.ltb_spec (length vs) 3) as [S|L].
  - rewrite !ring_edges_short by (rewrite ?Hl; exact S). split; reflexivity.
  - destruct (ring_tests_cyc ws p) as [-> ->]; [rewrite Hl; exact L|]. destruct (ring_tests_cyc vs p L) as [-> ->]. exact H.
Qed.

Theorem rot_in_any (k : nat) (vs : list pt) (p : pt) :
  in_ringb (ring_edges (rot k vs)) p = in_ringb (ring_edges vs) p /\
  strictly_in_ringb (ring_edges (rot k vs)) p = strictly_in_ringb (ring_edges vs) p.
Proof. apply ring_tests_by_cyc; [apply rot_length|apply ring_tests_perm, cyc_rot]. Qed.

Lemma rot_in (k : nat) (vs : list pt) (p : pt) : NoDup vs -> (3 <= length vs)%nat ->
  in_ringb (ring_edges (rot k vs)) p = in_ringb (ring_edges vs) p /\
  strictly_in_ringb (ring_edges (rot k vs)) p = strictly_in_ringb (ring_edges vs) p.
Proof. intros _ _. apply rot_in_any. Qed.

Theorem in_ringb_start_vertex (k : nat) (vs : list pt) (p : pt) : NoDup vs -> (3 <= length vs)%nat ->
  in_ringb (ring_edges (rot k vs)) p = in_ringb (ring_edges vs) p.
Proof. intros Hnd H3. apply (rot_in k vs p Hnd H3). Qed.

Definition swap (s : seg) : seg := (snd s, fst s).

Lemma path_segs_rev (l : list pt) : path_segs (rev l) = map swap (rev (path_segs l)).
Proof.
  induction l as [|x l IH]; [reflexivity|]. destruct l as [|y r]; [reflexivity|].
  rewrite path_segs_cons2. cbn [rev] in *. rewrite map_app. cbn [map swap fst snd].
  rewrite <- IH. rewrite (path_segs_snoc (rev r ++ [y]) x) by (destruct (rev r); discriminate).
  rewrite last_last. reflexivity.
Qed.

Lemma cyc_rev (vs : list pt) : Permutation (cyc_edges (rev vs)) (map swap (rev (cyc_edges vs))).
Proof.
  destruct vs as [|a r]; [apply Permutation_refl|].
  assert (E : map swap (rev (cyc_edges (a :: r))) = cyc_edges (a :: rev r)).
  { unfold cyc_edges. cbn [hd]. rewrite <- path_segs_rev. f_equal.
    change ((a :: r) ++ [a]) with (a :: (r ++ [a])). cbn [rev]. rewrite rev_app_distr. reflexivity. }
  rewrite E. cbn [rev]. destruct (rev r) as [|x t] eqn:Er.
  - apply Permutation_refl.
  - apply cyc_rot1. discriminate.
Qed.

Lemma on_segb_swap (s : seg) (p : pt) : on_segb (swap s) p = on_segb s p.
Proof.
  destruct s as [a b]. unfold swap. cbn [fst snd]. apply bool_eq_iff. rewrite !on_segb_iff. apply on_seg_swap.
Qed.

Lemma crossesb_swap (s : seg) (p : pt) : crossesb (swap s) p = crossesb s p.
Proof.
  destruct s as [a b]. unfold swap. cbn [fst snd]. apply bool_eq_iff. rewrite !crossesb_iff. apply crosses_swap.
Qed.

Lemma in_ringb_swap (E : list seg) (p : pt) : in_ringb (map swap E) p = in_ringb E p /\ strictly_in_ringb (map swap E) p = strictly_in_ringb E p.
Proof.
  assert (B : on_boundaryb (map swap E) p = on_boundaryb E p) by (apply existsb_map_ext; intros s; apply on_segb_swap).
  assert (P : parityb (map swap E) p = parityb E p).
  { rewrite !parityb_xfold, xfold_map. apply xfold_ext. intros s _. apply crossesb_swap. }
  unfold in_ringb, strictly_in_ringb. rewrite B, P. split; reflexivity.
Qed.

Theorem rev_in_any (vs : list pt) (p : pt) :
  in_ringb (ring_edges (rev vs)) p = in_ringb (ring_edges vs) p /\
  strictly_in_ringb (ring_edges (rev vs)) p = strictly_in_ringb (ring_edges vs) p.
Proof.
  apply ring_tests_by_cyc; [apply rev_length|].
  destruct (ring_tests_perm _ _ p (cyc_rev vs)) as [-> ->], (in_ringb_swap (rev (cyc_edges vs)) p) as [-> ->].
  apply ring_tests_perm. apply Permutation_sym, Permutation_rev.
Qed.

Lemma ring_edges_rev (vs : list pt) (p : pt) : NoDup vs -> (3 <= length vs)%nat ->
  in_ringb (ring_edges (rev vs)) p = in_ringb (ring_edges vs) p /\
  strictly_in_ringb (ring_edges (rev vs)) p = strictly_in_ringb (ring_edges vs) p.
Proof. intros _ _. apply rev_in_any. Qed.

Theorem in_ringb_winding (vs : list pt) (p : pt) : NoDup vs -> (3 <= length vs)%nat ->
  in_ringb (ring_edges (rev vs)) p = in_ringb (ring_edges vs) p.
Proof. intros Hnd H3. apply (ring_edges_rev vs p Hnd H3). Qed.

(* f re-encodes a ring (rot k and rev below): it keeps the length, commutes with maps of the plane
   and keeps membership; then polygons and the Intersects answers keep theirs *)
Section Reorder.
Variable f : list pt -> list pt.
Hypothesis f_len : forall vs, length (f vs) = length vs.
Hypothesis f_map : forall (g : pt -> pt) vs, map g (f vs) = f (map g vs).
Hypothesis f_in : forall vs p, NoDup vs -> (3 <= length vs)%nat ->
  in_ringb (ring_edges (f vs)) p = in_ringb (ring_edges vs) p /\
  strictly_in_ringb (ring_edges (f vs)) p = strictly_in_ringb (ring_edges vs) p.

Lemma NoDup_map_sc k vs : 0 < k -> NoDup vs -> NoDup (map (sc k) vs).
Proof.
  intros Hk. apply FinFun.Injective_map_NoDup. intros a b. apply (aff_inj k 0 0 Hk).
Qed.

Lemma edges_at_f k vs p : 0 < k -> NoDup vs -> (3 <= length vs)%nat ->
  in_ringb (edges_at k (f vs)) p = in_ringb (edges_at k vs) p.
Proof.
  intros Hk Hnd H3. unfold edges_at. rewrite f_map. apply f_in; [apply NoDup_map_sc; assumption|rewrite map_length; exact H3].
Qed.

Lemma shares_point_f ps A B : NoDup ps -> (3 <= length ps)%nat -> (shares_point (f ps) A B <-> shares_point ps A B).
Proof.
  intros Hnd H3. unfold shares_point.
  split; intros (k & P & Hk & Hon & Hin); exists k, P; (split; [exact Hk|]); (split; [exact Hon|]);
    pose proof (edges_at_f k ps P Hk Hnd H3) as E; unfold edges_at in E; [rewrite <- E|rewrite E]; exact Hin.
Qed.

Theorem ring_intersects_segment_reorder (ps : list pt) (A B : pt) : NoDup ps -> (3 <= length ps)%nat ->
  ring_intersects_segment (RS {| closed := true; pts := f ps |}) (A, B) true =
  ring_intersects_segment (RS {| closed := true; pts := ps |}) (A, B) true.
Proof. intros Hnd H3. apply bool_eq_iff. rewrite !ring_intersects_segment_pointset. apply shares_point_f; assumption. Qed.

Theorem ring_intersects_line_reorder (ps qs : list pt) : NoDup ps -> (3 <= length ps)%nat ->
  ring_intersects_line (RS {| closed := true; pts := f ps |}) (RS {| closed := false; pts := qs |}) true =
  ring_intersects_line (RS {| closed := true; pts := ps |}) (RS {| closed := false; pts := qs |}) true.
Proof.
  intros Hnd H3. apply bool_eq_iff. rewrite !ring_intersects_line_pointset, f_len.
  split; intros (H1 & H2 & sg & Hin & Hs); (split; [exact H1|]); (split; [exact H2|]); exists sg; (split; [exact Hin|]);
    apply (shares_point_f ps _ _ Hnd H3); exact Hs.
Qed.

Lemma rings_share_point_f ps qs : NoDup ps -> (3 <= length ps)%nat -> NoDup qs -> (3 <= length qs)%nat ->
  (rings_share_point (f ps) (f qs) <-> rings_share_point ps qs).
Proof.
  intros Hp H3p Hq H3q. unfold rings_share_point. split; intros (k & P & Hk & H1 & H2); exists k, P; (split; [exact Hk|]).
  - rewrite (edges_at_f k ps P Hk Hp H3p) in H1. rewrite (edges_at_f k qs P Hk Hq H3q) in H2. split; assumption.
  - rewrite (edges_at_f k ps P Hk Hp H3p), (edges_at_f k qs P Hk Hq H3q). split; assumption.
Qed.

Theorem ring_intersects_ring_reorder (ps qs : list pt) : NoDup ps -> NoDup qs ->
  ring_intersects_ring (RS {| closed := true; pts := f ps |}) (RS {| closed := true; pts := f qs |}) true =
  ring_intersects_ring (RS {| closed := true; pts := ps |}) (RS {| closed := true; pts := qs |}) true.
Proof.
  intros Hp Hq. apply bool_eq_iff. rewrite !ring_intersects_ring_pointset, !f_len.
  split; intros (H1 & H2 & H); (split; [exact H1|]); (split; [exact H2|]); apply (rings_share_point_f ps qs Hp H1 Hq H2); exact H.
Qed.

Theorem poly_contains_point_reorder (e : list pt) (hs : list (list pt)) (p : pt) :
  NoDup e -> (3 <= length e)%nat -> (forall h, In h hs -> NoDup h /\ (3 <= length h)%nat) ->
  poly_contains_point (Pg (f e) (map f hs)) p = poly_contains_point (Pg e hs) p.
Proof.
  intros He H3 Hh. rewrite !poly_intersects_point_spec. apply (in_polyb_rings f); [apply (f_in e p He H3)|].
  intros h Hin. destruct (Hh h Hin) as [Nh Lh]. apply (f_in h p Nh Lh).
Qed.
End Reorder.

Lemma map_rot (g : pt -> pt) (k : nat) (vs : list pt) : map g (rot k vs) = rot k (map g vs).
Proof. unfold rot. rewrite map_app, map_length, <- skipn_map, <- firstn_map. reflexivity. Qed.

Definition ring_intersects_segment_start_vertex k := ring_intersects_segment_reorder (rot k) (fun g => map_rot g k) (rot_in k).
Definition ring_intersects_line_start_vertex k := ring_intersects_line_reorder (rot k) (rot_length k) (fun g => map_rot g k) (rot_in k).
Definition ring_intersects_ring_start_vertex k := ring_intersects_ring_reorder (rot k) (rot_length k) (fun g => map_rot g k) (rot_in k).
Definition poly_contains_point_start_vertex k := poly_contains_point_reorder (rot k) (rot_in k).

Definition ring_intersects_segment_winding := ring_intersects_segment_reorder (@rev pt) (fun g vs => map_rev g vs) ring_edges_rev.
Definition ring_intersects_line_winding := ring_intersects_line_reorder (@rev pt) (@rev_length pt) (fun g vs => map_rev g vs) ring_edges_rev.
Definition ring_intersects_ring_winding := ring_intersects_ring_reorder (@rev pt) (@rev_length pt) (fun g vs => map_rev g vs) ring_edges_rev.
Definition poly_contains_point_winding := poly_contains_point_reorder (@rev pt) ring_edges_rev.

Print Assumptions ring_intersects_ring_start_vertex.
Print Assumptions poly_contains_point_winding.

(* not vacuous: a concave ring, started elsewhere and reversed *)
Example reorder_example :
  let vs := [(0,0);(8,0);(8,8);(4,4);(0,8)] in
  NoDup vs /\ rot 2 vs = [(8,8);(4,4);(0,8);(0,0);(8,0)] /\
  in_ringb (ring_edges (rot 2 vs)) (4,5) = false /\ in_ringb (ring_edges (rev vs)) (2,5) = true.
Proof.
  split; [|vm_compute; repeat split; reflexivity].
  repeat constructor; cbn; intros H; repeat (destruct H as [H|H]; [discriminate H|]); exact H.
Qed.
