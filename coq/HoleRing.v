(* HoleRing.v — property C02 / C03: strict containment of a closed ring by a ring (the test Poly.IntersectsPoly
   applies to "the other polygon lies in one of my holes"), any number of points: true exactly when every
   rational point of every edge of the argument is strictly inside.  A closed ring is, for rcr_core, the open
   line through its vertices followed by the first one; the bounding-box shortcut is sound by HoleBox.v. *)
From GJ Require Import Base Series SeriesSpec Ring RingSpec KernelProofs SeriesProofs PairProofs
  Jordan JordanQ Holes HoleBox.
Import ListNotations.
Open Scope Z_scope.

Lemma closed_path_bbox (f : list pt) : bbox_spec (closed_path f) = bbox_spec f.
Proof.
  unfold closed_path. destruct (pt_eqb (last f pt0) (hd pt0 f)); [reflexivity|].
  destruct f as [|p r]; [reflexivity|]. cbn [hd app bbox_spec]. rewrite !map_app. cbn [map].
  unfold min_list, max_list. rewrite !fold_left_app. cbn [fold_left]. fold (min_list (px p) (map px r)). fold (min_list (py p) (map py r)).
  fold (max_list (px p) (map px r)). fold (max_list (py p) (map py r)).
  pose proof (axis_tight px p r p (or_introl eq_refl)). pose proof (axis_tight py p r p (or_introl eq_refl)).
  apply f_equal2; apply f_equal2; lia.
Qed.

Lemma forallb_same {A} (g : A -> bool) (l l' : list A) : (forall x, In x l <-> In x l') -> forallb g l = forallb g l'.
Proof.
  intros H. apply bool_eq_iff. rewrite !forallb_forall. split; intros F x Hx; apply F; apply H; exact Hx.
Qed.

(* for rcr_core a closed ring is the open line along its closed path *)
Lemma rcr_core_ring_as_line (h f : list pt) (allow : bool) : (3 <= length f)%nat ->
  rcr_core (Rg h) (Rg f) allow = rcr_core (Rg h) (Lr (closed_path f)) allow.
Proof.
  intros H3. assert (Hne : f <> []) by (intros ->; cbn in H3; lia).
  assert (L2 : (2 <= length (closed_path f))%nat) by (pose proof (closed_path_length f); lia).
  unfold rcr_core. rewrite (Rg_empty f), Lr_empty, Rg_pts, Lr_pts, Rg_segs, Lr_segs, (Rg_rect f H3), (Lr_rect _ L2).
  rewrite (proj2 (Nat.ltb_ge _ _) H3), (proj2 (Nat.ltb_ge _ _) L2), closed_path_bbox, (closed_path_segs f H3).
  rewrite (forallb_same _ f (closed_path f)) by (intros x; symmetry; apply closed_path_in; exact Hne).
  reflexivity.
Qed.

(* ringContainsRing for two closed rings of ANY size, strict mode *)
Theorem ring_contains_ring_strict_exact (h f : list pt) : hole_ok h -> (3 <= length f)%nat ->
  (ring_contains_ring (Rg h) (Rg f) false = true <->
   (3 <= length h)%nat /\ forall sg, In sg (ring_edges f) -> all_strictly_inside h (fst sg) (snd sg)).
Proof.
  intros Hok H3.
  assert (L2 : (2 <= length (closed_path f))%nat) by (pose proof (closed_path_length f); lia).
  assert (Core : rcr_core (Rg h) (Rg f) false = true <->
                 (3 <= length h)%nat /\ forall sg, In sg (ring_edges f) -> all_strictly_inside h (fst sg) (snd sg)).
  { rewrite (rcr_core_ring_as_line h f false H3), (rcr_core_line_strict h (closed_path f) Hok L2).
    unfold line_strictly_inside. rewrite (closed_path_segs f H3). tauto. }
  rewrite <- Core. unfold ring_contains_ring.
  destruct (ring_empty (Rg h) || ring_empty (Rg f)) eqn:Ee.
  - unfold rcr_core. rewrite Ee. tauto.
  - destruct ((complexRingMinPoints <=? ring_npoints (Rg f))%nat && rcr_core (Rg h) (RR (ring_rect (Rg f))) false) eqn:Es; [|tauto].
    apply andb_true_iff in Es. destruct Es as [_ Es].
    (* the box of the ring is the box of its closed path *)
    assert (Er : ring_rect (Rg f) = ring_rect (Lr (closed_path f))).
    { rewrite (Rg_rect f H3), (Lr_rect _ L2). symmetry. apply closed_path_bbox. }
    rewrite Er in Es. pose proof (shortcut_strict h (closed_path f) Hok L2 Es) as C.
    rewrite <- (rcr_core_ring_as_line h f false H3) in C. rewrite C. tauto.
Qed.

Print Assumptions ring_contains_ring_strict_exact.
