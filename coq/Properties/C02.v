(* Property C02 — Intersects is exact and symmetric.  PARTIAL: the statements
   below are kernel-checked for every input.  Ring x segment and ring x line
   string (= polygon without holes x line string) and ring x ring (= polygon x
   polygon without holes) are proved exact as point sets, hence symmetric,
   through a discrete Jordan-curve argument (Jordan.v, JordanQ.v, JordanRing.v);
   with holes: polygon x line string of any length under explicit validity
   hypotheses (Holes.v, HoleBox.v); the other pairs involving holes are NOT proved and are decided by the
   differential correspondence against the executable oracle PairSpec.meets_x on
   every run. *)
From Coq Require Import QArith.
From GJ Require Import Base Kernel KernelSpec KernelProofs IntersectsProofs IntersectsQ Series SeriesSpec
  Ring RingSpec PipProofs PairProofs Jordan JordanQ JordanRing JordanRect Convex Holes HoleBox.
Open Scope Z_scope.

(* segments: true exactly when the closed segments share a point; symmetric *)
Theorem C02_segment_exact : forall s o, intersects_segment s o = true <-> seg_meet s o.
Proof. exact intersects_segment_iff. Qed.
Theorem C02_segment_symmetric : forall s o, intersects_segment s o = intersects_segment o s.
Proof. exact intersects_segment_sym. Qed.

(* point x {rect, line, polygon} and the mirrored pairs: the point-set membership of C01 *)
Theorem C02_point_rect : forall p r, point_intersects_rect p r = in_rectb r p.
Proof. exact point_intersects_rect_spec. Qed.
Theorem C02_point_line : forall p ps, point_intersects_line p (Lr ps) = in_lineb ps p.
Proof. exact point_intersects_line_spec. Qed.
Theorem C02_point_poly : forall p e hs,
  point_intersects_poly p (Pg e hs) = in_polyb (ring_edges e) (map ring_edges hs) p.
Proof. exact point_intersects_poly_spec. Qed.
Theorem C02_line_point : forall ps p, line_contains_point_r (Lr ps) p = in_lineb ps p.
Proof. exact line_intersects_point_spec. Qed.
Theorem C02_poly_point : forall e hs p,
  poly_contains_point (Pg e hs) p = in_polyb (ring_edges e) (map ring_edges hs) p.
Proof. exact poly_intersects_point_spec. Qed.

(* rect x rect: the closed boxes share a (rational) point; symmetric *)
Theorem C02_rect_rect : forall r o, rect_wf r -> rect_wf o ->
  (rect_intersects_rect r o = true <-> exists x y, in_rectQ r x y /\ in_rectQ o x y).
Proof. exact rect_intersects_rect_meets. Qed.
Theorem C02_rect_rect_symmetric : forall r o, rect_intersects_rect r o = rect_intersects_rect o r.
Proof. exact rect_intersects_rect_sym. Qed.

(* line x line: both have a segment and some pair of segments shares a point;
   the bounding-box pre-tests and the shorter-line-first swap are invisible; symmetric *)
Theorem C02_line_line : forall ps qs,
  line_intersects_line (Lr ps) (Lr qs) = true <->
  (2 <= length ps)%nat /\ (2 <= length qs)%nat /\
  exists sa sb, In sa (path_segs ps) /\ In sb (path_segs qs) /\ seg_meet sa sb.
Proof. exact line_intersects_line_spec. Qed.
Theorem C02_line_line_symmetric : forall l o, line_intersects_line l o = line_intersects_line o l.
Proof. exact line_intersects_line_sym. Qed.
Theorem C02_seg_meet_is_common_point : forall s o,
  seg_meet s o <-> exists q : Q * Q, on_segQ s q /\ on_segQ o q.
Proof. exact seg_meet_iff_common_point. Qed.

(* the remaining mixed pairs delegate to one implementation, so operand order cannot matter *)
Theorem C02_rect_line_symmetric : forall q l, rect_intersects_line q l = line_intersects_rect l q.
Proof. reflexivity. Qed.
Theorem C02_rect_poly_symmetric : forall q p, rect_intersects_poly q p = poly_intersects_rect p q.
Proof. reflexivity. Qed.
Theorem C02_line_poly_symmetric : forall l p, line_intersects_poly l p = poly_intersects_line p l.
Proof. reflexivity. Qed.

(* ---- rings: a discrete Jordan-curve argument (any closed vertex sequence) ---- *)

(* the crossing parity is constant along a grid segment that no ring edge meets *)
Theorem C02_parity_constant_off_boundary : forall ps A B,
  (forall e, In e (ring_edges ps) -> ~ seg_meet e (A, B)) ->
  parityb (ring_edges ps) A = parityb (ring_edges ps) B.
Proof. exact parity_constant_off_boundary. Qed.

(* both ends strictly outside and an edge meets the segment: at least two edges do —
   the fact behind ringIntersectsSegment's "count >= 2" rule *)
Theorem C02_two_edges_meet : forall ps A B,
  in_ringb (ring_edges ps) A = false -> in_ringb (ring_edges ps) B = false ->
  existsb (fun e => intersects_segment (A, B) e) (ring_edges ps) = true ->
  (2 <= length (filter (fun e => intersects_segment (A, B) e) (ring_edges ps)))%nat.
Proof. exact two_edges_meet. Qed.

(* ringIntersectsSegment (contact allowed) = an end is in the closed ring or an edge meets the segment *)
Theorem C02_ring_segment_exact : forall ps A B,
  ring_intersects_segment (RS {| closed := true; pts := ps |}) (A, B) true =
  in_ringb (ring_edges ps) A || in_ringb (ring_edges ps) B ||
  existsb (fun e => seg_meetb e (A, B)) (ring_edges ps).
Proof. exact ring_intersects_segment_exact. Qed.

(* ... which is: the closed segment and the closed ring share a rational point
   (P, k) = P / k *)
Theorem C02_ring_segment_pointset : forall ps A B,
  ring_intersects_segment (RS {| closed := true; pts := ps |}) (A, B) true = true <->
  exists k P, 0 < k /\ on_seg (sc k A, sc k B) P /\ in_ringb (ring_edges (map (sc k) ps)) P = true.
Proof. exact ring_intersects_segment_pointset. Qed.

(* membership of P / k in the ring does not depend on the representative *)
Theorem C02_rational_membership_well_defined : forall ps j k P, 0 < j ->
  in_ringb (ring_edges (map (sc (j * k)) ps)) (sc j P) = in_ringb (ring_edges (map (sc k) ps)) P.
Proof. exact in_ring_scale_invariant. Qed.

(* ringIntersectsLine = Poly.IntersectsLine / Line.IntersectsPoly for a polygon without holes:
   true exactly when some segment of the line shares a point with the closed ring *)
Theorem C02_ring_line_pointset : forall ps qs,
  ring_intersects_line (RS {| closed := true; pts := ps |}) (RS {| closed := false; pts := qs |}) true = true <->
  (3 <= length ps)%nat /\ (2 <= length qs)%nat /\
  exists sg, In sg (path_segs qs) /\ shares_point ps (fst sg) (snd sg).
Proof. exact ring_intersects_line_pointset. Qed.

(* ringIntersectsRing = Poly.IntersectsPoly for polygons without holes: true exactly when the two
   closed rings share a rational point (P, k) = P / k — a statement symmetric in the operands.
   Any closed vertex sequences: the ring chosen as "the ring" is the one with the larger box, and
   nesting the other way is excluded by the boxes (JordanRing.nested_bigger_box), boundaries
   lying outside each other by a descent on the edges met (no_common_interior_point). *)
Theorem C02_ring_ring_pointset : forall ps qs,
  ring_intersects_ring (RS {| closed := true; pts := ps |}) (RS {| closed := true; pts := qs |}) true = true <->
  (3 <= length ps)%nat /\ (3 <= length qs)%nat /\
  exists k P, 0 < k /\ in_ringb (ring_edges (map (sc k) ps)) P = true /\
                       in_ringb (ring_edges (map (sc k) qs)) P = true.
Proof. exact ring_intersects_ring_pointset. Qed.
Theorem C02_ring_ring_symmetric : forall ps qs,
  ring_intersects_ring (RS {| closed := true; pts := ps |}) (RS {| closed := true; pts := qs |}) true =
  ring_intersects_ring (RS {| closed := true; pts := qs |}) (RS {| closed := true; pts := ps |}) true.
Proof. exact ring_intersects_ring_sym. Qed.
Theorem C02_polygons_without_holes : forall e1 e2,
  poly_intersects_poly (Pg e1 []) (Pg e2 []) = true <->
  (3 <= length e1)%nat /\ (3 <= length e2)%nat /\ rings_share_point e1 e2.
Proof. exact poly_intersects_poly_noholes. Qed.
Theorem C02_polygons_without_holes_symmetric : forall e1 e2,
  poly_intersects_poly (Pg e1 []) (Pg e2 []) = poly_intersects_poly (Pg e2 []) (Pg e1 []).
Proof. exact poly_intersects_poly_noholes_sym. Qed.
Theorem C02_polygon_without_holes_line : forall e qs,
  poly_intersects_line (Pg e []) (Lr qs) = true <->
  (3 <= length e)%nat /\ (2 <= length qs)%nat /\
  exists sg, In sg (path_segs qs) /\ shares_point e (fst sg) (snd sg).
Proof. exact poly_intersects_line_noholes. Qed.

(* a Rect operand: Rect.IntersectsLine / Line.IntersectsRect and Poly.IntersectsRect /
   Rect.IntersectsPoly (polygon without holes): true exactly when the closed box and the other
   closed set share a rational point *)
Theorem C02_rect_line_pointset : forall q qs, rect_wf q ->
  (rect_intersects_line q (Lr qs) = true <->
   (2 <= length qs)%nat /\
   exists sg k P, In sg (path_segs qs) /\ 0 < k /\ on_seg (sc k (fst sg), sc k (snd sg)) P /\ in_rectb (scr k q) P = true).
Proof. exact rect_intersects_line_pointset. Qed.
Theorem C02_polygon_without_holes_rect : forall e q, rect_wf q ->
  (poly_intersects_rect (Pg e []) q = true <->
   (3 <= length e)%nat /\
   exists k P, 0 < k /\ in_ringb (edges_at k e) P = true /\ in_rectb (scr k q) P = true).
Proof. exact poly_intersects_rect_noholes. Qed.

(* ---- a polygon WITH holes against a line string (Holes.v), stated for fewer than 16 points, where
   ringContainsRing does not take its bounding-box shortcut; the hypothesis on the length is not
   needed (HoleBox.v, the statements for any length below) ----
   each hole either not flagged convex, or flagged convex and really convex (Convex.hpc):
   - no validity assumption: true exactly when the line shares a point with the closed exterior
       and is not wholly strictly inside a hole;
   - valid polygon (every boundary point of a hole is in the closed exterior and strictly inside
       no hole): true exactly when the line string and exterior-minus-hole-interiors share a
       rational point *)
Theorem C02_polygon_with_holes_line : forall e hs qs,
  Forall hole_ok hs -> (length qs < 16)%nat ->
  (poly_intersects_line (Pg e hs) (Lr qs) = true <->
   ((3 <= length e)%nat /\ (2 <= length qs)%nat /\
    exists sg, In sg (path_segs qs) /\ shares_point e (fst sg) (snd sg)) /\
   forall h, In h hs -> ~ line_strictly_inside h qs).
Proof. intros e hs qs Hok _. exact (poly_intersects_line_holes_all e hs qs Hok). Qed.
Theorem C02_polygon_with_holes_line_pointset : forall e hs qs,
  Forall hole_ok hs -> holes_valid e hs -> (length qs < 16)%nat ->
  (poly_intersects_line (Pg e hs) (Lr qs) = true <->
   (3 <= length e)%nat /\ (2 <= length qs)%nat /\
   exists sg, In sg (path_segs qs) /\ poly_shares_point e hs (fst sg) (snd sg)).
Proof. intros e hs qs Hok Hval _. exact (poly_intersects_line_pointset_all e hs qs Hok Hval). Qed.
(* ... for line strings of ANY length: the bounding-box shortcut of ringContainsRing (arguments of 16
   points and more) is sound in strict mode - if the four sides of the box of the line lie strictly
   inside the hole, so does every rational point of the box (no edge of the hole can enter the box: its
   ends would be strictly inside the box, then every vertex of the hole would be, and a corner of the
   box could not lie inside the hole's own bounding box) *)
Theorem C02_box_shortcut_strict : forall h qs, hole_ok h -> (2 <= length qs)%nat ->
  rcr_core (Rg h) (RR (ring_rect (Lr qs))) false = true -> rcr_core (Rg h) (Lr qs) false = true.
Proof. exact shortcut_strict. Qed.
Theorem C02_polygon_with_holes_line_any_length : forall e hs qs,
  Forall hole_ok hs ->
  (poly_intersects_line (Pg e hs) (Lr qs) = true <->
   ((3 <= length e)%nat /\ (2 <= length qs)%nat /\
    exists sg, In sg (path_segs qs) /\ shares_point e (fst sg) (snd sg)) /\
   forall h, In h hs -> ~ line_strictly_inside h qs).
Proof. exact poly_intersects_line_holes_all. Qed.
Theorem C02_polygon_with_holes_line_pointset_any_length : forall e hs qs,
  Forall hole_ok hs -> holes_valid e hs ->
  (poly_intersects_line (Pg e hs) (Lr qs) = true <->
   (3 <= length e)%nat /\ (2 <= length qs)%nat /\
   exists sg, In sg (path_segs qs) /\ poly_shares_point e hs (fst sg) (snd sg)).
Proof. exact poly_intersects_line_pointset_all. Qed.
(* a line string of 17 points inside the hole of a square: the shortcut is taken, the answer is "no" *)
Example C02_long_line_in_hole :
  poly_intersects_line (Pg (rect_points ((0,0),(40,40))) [rect_points ((2,2),(30,30))])
    (Lr [(3,3);(4,5);(5,3);(6,5);(7,3);(8,5);(9,3);(10,5);(11,3);(12,5);(13,3);(14,5);(15,3);(16,5);(17,3);(18,5);(19,3)]) = false.
Proof. vm_compute. reflexivity. Qed.
(* non-vacuity: a square with a square hole *)
Example C02_holes_hypotheses_hold_somewhere :
  let e := rect_points ((0,0),(8,8)) in let h := rect_points ((2,2),(4,4)) in
  Forall hole_ok [h] /\ holes_valid e [h] /\
  poly_intersects_line (Pg e [h]) (Lr [(3,3); (3,6)]) = true /\
  poly_intersects_line (Pg e [h]) (Lr [(3,3); (3,4)]) = true /\
  poly_intersects_line (Pg e [h]) (Lr [(3,3); (3,3)]) = false.
Proof.
  cbv zeta. split; [|split; [|vm_compute; repeat split]].
  - constructor; [|constructor]. right. split; [vm_compute; reflexivity|]. exists 1. split; [left; reflexivity|]. split.
    + intros a b c d Hab Hcd. vm_compute in Hab, Hcd.
      destruct Hab as [E1|[E1|[E1|[E1|[]]]]]; destruct Hcd as [E2|[E2|[E2|[E2|[]]]]];
        inversion E1; inversion E2; subst; vm_compute; split; discriminate.
    + intros a b Hab. vm_compute in Hab. destruct Hab as [E1|[E1|[E1|[E1|[]]]]]; inversion E1; subst; discriminate.
  - intros h [<-|[]] k f S Hk Hf Hon. split.
    + rewrite in_ringb_rect_at by (try exact Hk; unfold rect_wf; cbn; lia).
      rewrite edges_at_map in Hf by exact Hk. apply in_map_iff in Hf. destruct Hf as (f0 & <- & Hf0).
      vm_compute in Hf0. destruct Hf0 as [<-|[<-|[<-|[<-|[]]]]];
        unfold scs, Invariance.affs, Invariance.aff, on_seg, px, py in Hon; cbn [fst snd] in Hon;
        unfold in_rectb, scr, sc, Invariance.aff, px, py; cbn [fst snd];
        rewrite !andb_true_iff, !Z.leb_le; lia.
    + intros h' [<-|[]]. unfold strictly_in_ringb. apply andb_false_iff. left. apply negb_false_iff.
      apply on_boundaryb_iff. exists f. split; assumption.
Qed.

(* non-vacuity of the ring x ring statement: a small square nested in a big one (no edges meet;
   either operand order), two overlapping squares, two disjoint squares *)
Example C02_ring_ring_examples :
  let big := [(0,0); (8,0); (8,8); (0,8); (0,0)] in
  let small := [(3,3); (5,3); (5,5); (3,5); (3,3)] in
  let shifted := [(6,6); (12,6); (12,12); (6,12); (6,6)] in
  let far := [(20,20); (22,20); (22,22); (20,22); (20,20)] in
  let ri a b := ring_intersects_ring (RS {| closed := true; pts := a |}) (RS {| closed := true; pts := b |}) true in
  ri big small = true /\ ri small big = true /\ ri big shifted = true /\ ri shifted big = true /\
  ri big far = false /\ ri small shifted = false /\
  existsb (fun e => existsb (fun f => seg_meetb e f) (ring_edges small)) (ring_edges big) = false.
Proof. vm_compute. repeat split. Qed.

(* non-vacuity: a square, a segment through it with both ends outside (two edges
   meet it), and a rational shared point that is not a grid point of the unscaled plane *)
Example C02_two_edges_example :
  let ps := [(0,0); (4,0); (4,4); (0,4); (0,0)] in
  in_ringb (ring_edges ps) (-1, 1) = false /\ in_ringb (ring_edges ps) (5, 2) = false /\
  existsb (fun e => intersects_segment ((-1, 1), (5, 2)) e) (ring_edges ps) = true /\
  length (filter (fun e => intersects_segment ((-1, 1), (5, 2)) e) (ring_edges ps)) = 2%nat /\
  ring_intersects_segment (RS {| closed := true; pts := ps |}) ((-1, 1), (5, 2)) true = true.
Proof. vm_compute. repeat split. Qed.
Example C02_rational_point_example :
  let ps := [(0,0); (4,0); (4,4); (0,4); (0,0)] in
  (* (7/2, 7/4): the point of the segment above at parameter 3/4; with k = 4 it is P = (14, 7) *)
  on_seg (sc 4 (-1, 1), sc 4 (5, 2)) (14, 7) /\ in_ringb (ring_edges (map (sc 4) ps)) (14, 7) = true.
Proof. split; [unfold on_seg; vm_compute; repeat split; discriminate|vm_compute; reflexivity]. Qed.
Example C02_parity_constant_example :
  let ps := [(0,0); (4,0); (4,4); (0,4); (0,0)] in
  (forall e, In e (ring_edges ps) -> seg_meetb e ((1, 1), (3, 2)) = false) /\
  parityb (ring_edges ps) (1, 1) = true /\ parityb (ring_edges ps) (3, 2) = true.
Proof.
  cbv zeta. split; [|split; vm_compute; reflexivity].
  intros e He. apply negb_true_iff. revert e He. apply forallb_forall. vm_compute. reflexivity.
Qed.

Print Assumptions C02_segment_exact.
Print Assumptions C02_parity_constant_off_boundary.
Print Assumptions C02_two_edges_meet.
Print Assumptions C02_ring_segment_exact.
Print Assumptions C02_ring_segment_pointset.
Print Assumptions C02_rational_membership_well_defined.
Print Assumptions C02_ring_line_pointset.
Print Assumptions C02_ring_ring_pointset.
Print Assumptions C02_ring_ring_symmetric.
Print Assumptions C02_polygons_without_holes.
Print Assumptions C02_polygons_without_holes_symmetric.
Print Assumptions C02_polygon_without_holes_line.
Print Assumptions C02_rect_line_pointset.
Print Assumptions C02_polygon_with_holes_line.
Print Assumptions C02_polygon_with_holes_line_pointset.
Print Assumptions C02_polygon_without_holes_rect.
Print Assumptions C02_rect_rect.
Print Assumptions C02_line_line.
Print Assumptions C02_line_line_symmetric.
Print Assumptions C02_seg_meet_is_common_point.
Print Assumptions C02_point_poly.
Print Assumptions C02_polygon_with_holes_line_pointset_any_length.
