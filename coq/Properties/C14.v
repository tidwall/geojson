(* Property C14 — the bounding rectangle of a radius search covers the whole disc.
   Over the reals, for a disc that reaches neither a pole nor the antimeridian:
   the latitude band [lat - r, lat + r] and the longitude band lon +- asin (sin r /
   cos lat) of RectFromCenter are proved to contain every location within angular
   distance r, and the angle the code computes (atan2 form, since the repair
   7efb257) is proved to be that tangent longitude; and for the whole function
   with its branches (SphereRectFull.rfc: clamping at a pole, full longitude
   range when a pole is reached or the band crosses the antimeridian) the
   rectangle is proved to contain the disc (longitudes modulo a turn) and to lie
   within the world bounds.  PARTIAL: NaN-freedom, the resolution guard and
   float64 rounding are checked on every run by flags over generated centres and
   radii (48 probes per case) and by certified interval samples. *)
From Coq Require Import Reals Lra.
From GJ Require Import Sphere SphereRect SphereRectFull.
Open Scope R_scope.

Theorem C14_latitude_band_covers_disc : forall lat0 lon0 lat lon r,
  lat_ok lat0 -> lat_ok lat -> 0 <= r <= PI ->
  hav lat0 lon0 lat lon <= sin (r / 2) * sin (r / 2) ->
  Rabs (rad lat - rad lat0) <= r.
Proof. exact disc_latitude_band. Qed.

(* "within angular distance r" is "within r * R metres" *)
Theorem C14_disc_in_metres : forall clat clon meters plat plon,
  lat_ok clat -> lat_ok plat -> 0 <= meters <= piR ->
  (hav plat plon clat clon <= dist_to_hav meters <-> distance_to plat plon clat clon <= meters).
Proof. exact circle_contains_point_spec. Qed.

Theorem C14_longitude_band_covers_disc : forall lat0 lon0 lat lon r,
  lat_ok lat0 -> lat_ok lat -> 0 <= r -> Rabs (rad lat0) + r < PI / 2 ->
  - PI <= rad lon - rad lon0 <= PI ->
  hav lat0 lon0 lat lon <= sin (r / 2) * sin (r / 2) ->
  Rabs (rad lon - rad lon0) <= asin (sin r / cos (rad lat0)).
Proof. exact disc_longitude_band. Qed.

Theorem C14_code_angle_is_tangent_longitude : forall lat r,
  0 <= r -> Rabs lat + r < PI / 2 ->
  atan (sin r / sqrt (cos (lat + r) * cos (lat - r))) = asin (sin r / cos lat).
Proof. exact rect_lon_is_tangent_longitude. Qed.

(* the hypotheses are satisfiable: centre latitude 45 N, radius 0.1 rad *)
Example C14_hypotheses_hold_somewhere : lat_ok 45 /\ 0 <= 1 / 10 /\ Rabs (rad 45) + 1 / 10 < PI / 2.
Proof.
  unfold lat_ok, rad. split; [lra|]. split; [lra|].
  pose proof PI2_3_2. rewrite Rabs_right; lra.
Qed.

(* the rectangle of RectFromCenter (all branches: clamping at a pole, full longitude range when a pole is
   reached or the band crosses the antimeridian) contains every location within the angular radius; longitudes
   modulo a full turn.  rfc is geo.go's function after the resolution guard, over the reals, in radians. *)
Theorem C14_rectangle_covers_disc : forall lat0 lon0 r lat lon,
  lat_ok lat0 -> lon_ok lon0 -> lat_ok lat -> lon_ok lon -> 0 <= r <= PI ->
  Rabs (rad lat0) + r <> PI / 2 ->
  hav lat0 lon0 lat lon <= sin (r / 2) * sin (r / 2) ->
  let '(mnLat, mnLon, mxLat, mxLon) := rfc lat0 lon0 r in
  mnLat <= rad lat <= mxLat /\
  exists j : Z, (-1 <= j <= 1)%Z /\ mnLon <= rad lon + 2 * PI * IZR j <= mxLon.
Proof. exact rfc_covers. Qed.

Theorem C14_rectangle_in_world_bounds : forall lat0 lon0 r,
  let '(mnLat, mnLon, mxLat, mxLon) := rfc lat0 lon0 r in
  - (PI / 2) <= mnLat /\ mxLat <= PI / 2 /\ - PI <= mnLon /\ mxLon <= PI.
Proof. exact rfc_in_bounds. Qed.

(* non-vacuity of the main theorem's hypotheses *)
Example C14_rectangle_hypotheses_hold_somewhere : lat_ok 45 /\ lon_ok 10 /\ 0 <= 1 / 10 <= PI /\ Rabs (rad 45) + 1 / 10 <> PI / 2 /\
  hav 45 10 45 10 <= sin ((1 / 10) / 2) * sin ((1 / 10) / 2).
Proof.
  unfold lat_ok, lon_ok. rewrite hav_refl. repeat split; try lra.
  - pose proof PI2_3_2. lra.
  - pose proof PI2_3_2. unfold rad. rewrite Rabs_right; lra.
  - nra.
Qed.

Print Assumptions C14_latitude_band_covers_disc.
Print Assumptions C14_longitude_band_covers_disc.
Print Assumptions C14_rectangle_covers_disc.
