(* Property C07 — Parse decodes exactly what the document says, or rejects it.
   PROVED on the model of Parse against the independent classification
   JsonSpec.class_doc (ParseSpec.v), for every document tree:
   - every document with a listed structural defect (at any nesting depth) is
     rejected, under every option set (C07_defects_rejected);
   - every well-formed document is accepted under the default representation
     options and the object's kind tree, nesting, child order and every x,y equal
     those the specification reads from the document (last duplicate member
     wins) - PARTIAL in one respect: under the hypothesis [nomix], which keeps
     the documents of the known finding out (a position with more ordinates
     than a two-ordinate first position is rejected; TestIssue714 pins that
     behaviour).  Without the hypothesis the statement is false of the faithful
     model: C07_mixed_dimensions_refuted exhibits one such document.
   Outside the theorems: text <-> tree (tokenizer, trailing bytes, whitespace),
   decided on every run by the correspondence with an independent tokenizer and
   encoding/json; that the model is the code: the byte-exact correspondence. *)
From GJ Require Import Base JsonConst Json JsonSpec JsonProofs EmitProofs Obj JsonExec ParseSpec.

Theorem C07_parse_total : forall fuel o one v,
  (exists g, parse fuel o one v = POk g) \/ (exists c, parse fuel o one v = PErr c).
Proof. exact parse_total. Qed.

Theorem C07_last_duplicate_wins : forall ms,
  k_type (scan_keys ms) = last_member s_type ms /\
  k_coords (scan_keys ms) = last_member s_coordinates ms /\
  k_geoms (scan_keys ms) = last_member s_geometries ms /\
  k_geom (scan_keys ms) = last_member s_geometry ms /\
  k_feats (scan_keys ms) = last_member s_features ms.
Proof. exact scan_keys_last. Qed.

Theorem C07_reject_not_object : forall fuel o one v,
  (forall ms, v <> JObj ms) -> exists c, parse (S fuel) o one v = PErr c.
Proof. intros fuel o one v H. apply defect_rejected. destruct v; try reflexivity. exfalso. exact (H _ eq_refl). Qed.
Theorem C07_reject_missing_type : forall fuel o one ms,
  last_member s_type ms = None -> parse (S fuel) o one (JObj ms) = PErr E_TypeMissing.
Proof. exact reject_missing_type. Qed.
Theorem C07_reject_nonstring_type : forall fuel o one ms t,
  last_member s_type ms = Some t -> (forall r d, t <> JStr r d) ->
  parse (S fuel) o one (JObj ms) = PErr E_TypeInvalid.
Proof. exact reject_nonstring_type. Qed.
Theorem C07_reject_unknown_type : forall fuel o one ms r t,
  last_member s_type ms = Some (JStr r t) -> known_type t = false ->
  parse (S fuel) o one (JObj ms) = PErr E_TypeUnknown.
Proof. exact reject_unknown_type. Qed.
Theorem C07_reject_point_coordinates : forall fuel o one ms r,
  last_member s_type ms = Some (JStr r s_Point) ->
  (last_member s_coordinates ms = None \/ exists c, last_member s_coordinates ms = Some c /\ is_array c = false) ->
  exists code, parse (S fuel) o one (JObj ms) = PErr code.
Proof.
  intros fuel o one ms r H Hc. apply defect_rejected. cbn [class_doc]. rewrite H. change (bytes_eqb s_Point s_Point) with true. cbv iota zeta.
  destruct Hc as [->|(c & -> & ->)]; reflexivity.
Qed.
Theorem C07_reject_feature_without_geometry : forall fuel o one ms r,
  last_member s_type ms = Some (JStr r s_Feature) -> last_member s_geometry ms = None ->
  parse (S fuel) o one (JObj ms) = PErr E_GeometryMissing.
Proof. exact reject_feature_without_geometry. Qed.

Theorem C07_accept_point : forall fuel ms r l,
  last_member s_type ms = Some (JStr r s_Point) ->
  last_member s_coordinates ms = Some (JArr l) ->
  forallb is_num l = true -> (2 <= length l <= 4)%nat ->
  forall o, allow_simple o = false -> require_valid o = false ->
  exists ex, parse (S fuel) o 1 (JObj ms) = POk (JPoint (num_of (nth 0 l JNull), num_of (nth 1 l JNull)) ex).
Proof. exact accept_point. Qed.

(* the rejection clause: a listed structural defect anywhere in the document is rejected, whatever the options *)
Theorem C07_defects_rejected : forall fuel o one v,
  class_doc fuel v = DEFECT -> exists c, parse fuel o one v = PErr c.
Proof. exact defect_rejected. Qed.

(* the decoding clause (partial: hypothesis nomix): a well-formed document is accepted and decoded as the specification reads it *)
Theorem C07_wellformed_accepted_and_decoded_partial : forall fuel o one v t,
  plain o -> class_doc fuel v = WF t -> nomix fuel v = true ->
  exists g, parse fuel o one v = POk g /\ enc_tree g = enc_tree t.
Proof. exact wf_accepted. Qed.

(* the decoding clause without nomix is false of the faithful model: one document of the known finding *)
Definition mix_num (k : Z) : jv := JNum [48 + k] (FV k).
Definition mix_doc : jv :=
  JObj [(key s_type, JStr s_LineString s_LineString);
        (key s_coordinates, JArr [JArr [mix_num 1; mix_num 2]; JArr [mix_num 3; mix_num 4; mix_num 5]])].
Theorem C07_mixed_dimensions_refuted :
  exists t, class_doc 2 mix_doc = WF t /\ nomix 2 mix_doc = false /\
            exists c, parse 2 (mk_opts 0 0) 1 mix_doc = PErr c.
Proof. eexists. split; [vm_compute; reflexivity|]. split; [vm_compute; reflexivity|]. eexists. vm_compute. reflexivity. Qed.

(* the hypotheses of the decoding clause can be met: a polygon with z values inside a Feature *)
Definition ok_ring : jv :=
  JArr [JArr [mix_num 0; mix_num 0; mix_num 7]; JArr [mix_num 4; mix_num 0; mix_num 7]; JArr [mix_num 4; mix_num 4];
        JArr [mix_num 0; mix_num 0; mix_num 7; mix_num 1]].
Definition ok_doc : jv :=
  JObj [(key s_type, JStr s_Feature s_Feature);
        (key s_geometry, JObj [(key s_type, JStr s_Polygon s_Polygon); (key s_coordinates, JArr [ok_ring])])].
Example C07_hypotheses_hold_somewhere :
  plain (mk_opts 0 0) /\ nomix 3 ok_doc = true /\ exists t, class_doc 3 ok_doc = WF t.
Proof. split; [repeat split|]. split; [vm_compute; reflexivity|]. eexists. vm_compute. reflexivity. Qed.

Print Assumptions C07_last_duplicate_wins.
Print Assumptions C07_defects_rejected.
Print Assumptions C07_wellformed_accepted_and_decoded_partial.
Print Assumptions C07_reject_unknown_type.
Print Assumptions C07_accept_point.
