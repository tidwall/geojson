(* Property C12 — answers are invariant under symmetries and re-encodings.
   Translation and positive scaling: proved for every pair predicate of the model
   (AffinePairs.v), i.e. - the model being the code on every case of the
   correspondence, known findings included - the translation / power-of-two
   clause of C12 for the code as it is.  Re-encodings: kernel-checked for the
   ring attributes, the segment kernels and candidate order; the start vertex and
   winding direction of a ring for point membership and the Intersects answers
   (StartVertex.v).  Reflections and transposition (the eight symmetries of the
   square): proved for point membership in rings and polygons with holes, and for
   the Intersects answers of ring x segment / line / ring, through the general
   crossing-parity theorem (Crossing.v: the parity does not depend on the
   direction of the ray) and the point-set theorems; for segment x segment,
   line x line and line membership directly; for Line.ContainsLine through its
   point-set exactness (LineComplete.v).  PARTIAL: reflection and re-encoding invariance of
   ring-level contains, and of intersects with holes, are checked metamorphically
   on every run (they fail exactly on the known C03/C12 findings). *)
From Coq Require Import Sorting.Permutation.
From GJ Require Import Base Kernel KernelSpec KernelProofs IntersectsProofs Series SeriesSpec SeriesProofs
  Ring RingSpec PipProofs PairProofs PairSpec Pairs Invariance AffinePairs Jordan Crossing Mirror MirrorY Symmetry LineSound LineComplete SymmetryLine StartVertex SymmetrySeg.
Open Scope Z_scope.

(* translation by (dx,dy) and scaling by k > 0 (k = 2^j in the property) *)
Theorem C12_raycast_affine : forall k dx dy, 0 < k -> forall s p,
  raycast (affs k dx dy s) (aff k dx dy p) = raycast s p.
Proof. exact raycast_aff. Qed.
Theorem C12_intersects_segment_affine : forall k dx dy, 0 < k -> forall s o,
  intersects_segment (affs k dx dy s) (affs k dx dy o) = intersects_segment s o.
Proof. exact intersects_segment_aff. Qed.
Theorem C12_collinear_affine : forall k dx dy, 0 < k -> forall s p,
  collinear_point (affs k dx dy s) (aff k dx dy p) = collinear_point s p.
Proof. exact collinear_point_aff. Qed.
Theorem C12_ring_membership_affine : forall k dx dy, 0 < k -> forall ps p allow,
  rcp_hit (RS {| closed := true; pts := map (aff k dx dy) ps |}) (aff k dx dy p) allow
  = rcp_hit (RS {| closed := true; pts := ps |}) p allow.
Proof. exact ring_contains_point_aff. Qed.
Theorem C12_polygon_membership_affine : forall k dx dy, 0 < k -> forall e hs p,
  poly_contains_point {| exterior := RS {| closed := true; pts := map (aff k dx dy) e |};
                         holes := map (fun h => RS {| closed := true; pts := h |}) (map (map (aff k dx dy)) hs) |} (aff k dx dy p)
  = poly_contains_point {| exterior := RS {| closed := true; pts := e |};
                           holes := map (fun h => RS {| closed := true; pts := h |}) hs |} p.
Proof. exact poly_contains_point_aff. Qed.
Theorem C12_line_membership_affine : forall k dx dy, 0 < k -> forall ps p,
  line_contains_point {| closed := false; pts := map (aff k dx dy) ps |} (aff k dx dy p)
  = line_contains_point {| closed := false; pts := ps |} p.
Proof. exact line_contains_point_aff. Qed.
Theorem C12_rect_membership_affine : forall k dx dy, 0 < k -> forall (r : rect) p,
  rect_contains_point (aff k dx dy (fst r), aff k dx dy (snd r)) (aff k dx dy p) = rect_contains_point r p.
Proof. exact rect_contains_point_aff. Qed.

(* every contains / intersects answer of the model - all sixteen receiver x
   argument pairs, every decision site of ringContainsSegment, the Line.ContainsLine walk - is unchanged when both
   non-empty geometries are mapped by p |-> (k x + dx, k y + dy), k > 0 (Move: k = 1) *)
Theorem C12_pair_predicates_translation_scaling : forall k dx dy, 0 < k -> forall a b,
  shape_ok a -> shape_ok b ->
  g_intersects (g_of_shape (shape_aff k dx dy a)) (g_of_shape (shape_aff k dx dy b)) = g_intersects (g_of_shape a) (g_of_shape b) /\
  g_contains (g_of_shape (shape_aff k dx dy a)) (g_of_shape (shape_aff k dx dy b)) = g_contains (g_of_shape a) (g_of_shape b).
Proof. exact pair_predicates_affine. Qed.

(* re-encodings: endpoint order of a segment, candidate order, start vertex, closing vertex *)
Theorem C12_raycast_endpoint_order : forall a b p, raycast (a, b) p = raycast (b, a) p.
Proof. exact raycast_sym. Qed.
Theorem C12_intersects_operand_order : forall s o, intersects_segment s o = intersects_segment o s.
Proof. exact intersects_segment_sym. Qed.
Theorem C12_membership_candidate_order : forall allow p l l' inn,
  Permutation l l' -> fst (pip_fold allow p l inn) = fst (pip_fold allow p l' inn).
Proof. exact pip_fold_perm. Qed.
Theorem C12_convex_start_vertex : forall k vs, convex_specb (rot k vs) = convex_specb vs.
Proof. exact convex_rot. Qed.
Theorem C12_clockwise_start_vertex : forall k vs, clockwise_specb (rot k vs) = clockwise_specb vs.
Proof. exact clockwise_rot. Qed.
Theorem C12_closing_vertex : forall vs, vs <> [] -> pt_eqb (last vs pt0) (hd pt0 vs) = false ->
  ring_vertices (vs ++ [hd pt0 vs]) = vs /\ ring_vertices vs = vs.
Proof. exact ring_vertices_closing. Qed.

(* the parity of the ray to the right at the two ends of a non-horizontal segment differs by the
   parity of the edges crossing the segment (half-open rule along it): the count does not depend
   on the direction of the ray *)
Theorem C12_crossing_parity : forall ps L H, py L < py H ->
  on_boundaryb (ring_edges ps) L = false -> on_boundaryb (ring_edges ps) H = false ->
  xorb (parityb (ring_edges ps) L) (parityb (ring_edges ps) H) = xfold (Xc L H) (ring_edges ps).
Proof. exact crossing_parity. Qed.

(* point membership, any closed vertex sequence / polygon with holes *)
Theorem C12_ring_membership_mirror_x : forall ps p allow,
  rcp_hit (RS {| closed := true; pts := map mir ps |}) (mir p) allow = rcp_hit (RS {| closed := true; pts := ps |}) p allow.
Proof. exact ring_contains_point_mir. Qed.
Theorem C12_ring_membership_mirror_y : forall ps p,
  in_ringb (ring_edges (map my ps)) (my p) = in_ringb (ring_edges ps) p.
Proof. exact in_ringb_my. Qed.
Theorem C12_ring_membership_transpose : forall ps p,
  in_ringb (ring_edges (map tr ps)) (tr p) = in_ringb (ring_edges ps) p.
Proof. exact in_ringb_tr. Qed.
Theorem C12_polygon_membership_mirror_x : forall e hs p,
  poly_contains_point (Pg (map mir e) (map (map mir) hs)) (mir p) = poly_contains_point (Pg e hs) p.
Proof. exact poly_contains_point_mir. Qed.
Theorem C12_polygon_membership_mirror_y : forall e hs p,
  poly_contains_point (Pg (map my e) (map (map my) hs)) (my p) = poly_contains_point (Pg e hs) p.
Proof. exact poly_contains_point_my. Qed.
Theorem C12_polygon_membership_transpose : forall e hs p,
  poly_contains_point (Pg (map tr e) (map (map tr) hs)) (tr p) = poly_contains_point (Pg e hs) p.
Proof. exact poly_contains_point_tr. Qed.

(* Intersects of ring x segment, ring x line string, ring x ring (polygons without holes) *)
Theorem C12_ring_segment_intersects_mirror_x : forall ps A B,
  ring_intersects_segment (RS {| closed := true; pts := map mir ps |}) (mir A, mir B) true =
  ring_intersects_segment (RS {| closed := true; pts := ps |}) (A, B) true.
Proof. exact ring_intersects_segment_mir. Qed.
Theorem C12_ring_line_intersects_mirror_x : forall ps qs,
  ring_intersects_line (RS {| closed := true; pts := map mir ps |}) (RS {| closed := false; pts := map mir qs |}) true =
  ring_intersects_line (RS {| closed := true; pts := ps |}) (RS {| closed := false; pts := qs |}) true.
Proof. exact ring_intersects_line_mir. Qed.
Theorem C12_ring_ring_intersects_mirror_x : forall ps qs,
  ring_intersects_ring (RS {| closed := true; pts := map mir ps |}) (RS {| closed := true; pts := map mir qs |}) true =
  ring_intersects_ring (RS {| closed := true; pts := ps |}) (RS {| closed := true; pts := qs |}) true.
Proof. exact ring_intersects_ring_mir. Qed.
Theorem C12_ring_ring_intersects_mirror_y : forall ps qs,
  ring_intersects_ring (RS {| closed := true; pts := map my ps |}) (RS {| closed := true; pts := map my qs |}) true =
  ring_intersects_ring (RS {| closed := true; pts := ps |}) (RS {| closed := true; pts := qs |}) true.
Proof. exact ring_intersects_ring_my. Qed.
Theorem C12_ring_ring_intersects_transpose : forall ps qs,
  ring_intersects_ring (RS {| closed := true; pts := map tr ps |}) (RS {| closed := true; pts := map tr qs |}) true =
  ring_intersects_ring (RS {| closed := true; pts := ps |}) (RS {| closed := true; pts := qs |}) true.
Proof. exact ring_intersects_ring_tr. Qed.
Theorem C12_ring_line_intersects_mirror_y : forall ps qs,
  ring_intersects_line (RS {| closed := true; pts := map my ps |}) (RS {| closed := false; pts := map my qs |}) true =
  ring_intersects_line (RS {| closed := true; pts := ps |}) (RS {| closed := false; pts := qs |}) true.
Proof. exact ring_intersects_line_my. Qed.
Theorem C12_ring_line_intersects_transpose : forall ps qs,
  ring_intersects_line (RS {| closed := true; pts := map tr ps |}) (RS {| closed := false; pts := map tr qs |}) true =
  ring_intersects_line (RS {| closed := true; pts := ps |}) (RS {| closed := false; pts := qs |}) true.
Proof. exact ring_intersects_line_tr. Qed.
Theorem C12_polygons_without_holes_mirror_y : forall e1 e2,
  poly_intersects_poly (Pg (map my e1) []) (Pg (map my e2) []) = poly_intersects_poly (Pg e1 []) (Pg e2 []).
Proof. exact poly_intersects_poly_noholes_my. Qed.
Theorem C12_polygons_without_holes_transpose : forall e1 e2,
  poly_intersects_poly (Pg (map tr e1) []) (Pg (map tr e2) []) = poly_intersects_poly (Pg e1 []) (Pg e2 []).
Proof. exact poly_intersects_poly_noholes_tr. Qed.

(* non-vacuity: an L-shaped ring, a point inside its notch region and one inside it, under the three maps *)
Example C12_reflection_examples :
  let ps := [(0,0); (6,0); (6,2); (2,2); (2,6); (0,6); (0,0)] in
  in_ringb (ring_edges ps) (1, 5) = true /\ in_ringb (ring_edges ps) (4, 4) = false /\
  in_ringb (ring_edges (map my ps)) (my (1, 5)) = true /\ in_ringb (ring_edges (map tr ps)) (tr (4, 4)) = false /\
  in_ringb (ring_edges (map mir ps)) (mir (1, 5)) = true.
Proof. vm_compute. repeat split. Qed.

(* Line.ContainsLine under the reflections and the transposition (hence all eight symmetries of the square) *)
Theorem C12_line_contains_line_mirror_x : forall ps qs,
  line_contains_line (Lr (map mir ps)) (Lr (map mir qs)) = line_contains_line (Lr ps) (Lr qs).
Proof. exact line_contains_line_mx. Qed.
Theorem C12_line_contains_line_mirror_y : forall ps qs,
  line_contains_line (Lr (map my ps)) (Lr (map my qs)) = line_contains_line (Lr ps) (Lr qs).
Proof. exact line_contains_line_my. Qed.
Theorem C12_line_contains_line_transpose : forall ps qs,
  line_contains_line (Lr (map tr ps)) (Lr (map tr qs)) = line_contains_line (Lr ps) (Lr qs).
Proof. exact line_contains_line_tr. Qed.

(* the vertex a ring starts at and its winding direction do not matter (vertex list given without the
   repeated closing point, all vertices distinct): point membership in rings and in polygons with
   holes, and the Intersects answers of ring x segment / line string / ring *)
Theorem C12_ring_membership_start_vertex : forall k vs p, NoDup vs -> (3 <= length vs)%nat ->
  in_ringb (ring_edges (rot k vs)) p = in_ringb (ring_edges vs) p.
Proof. exact in_ringb_start_vertex. Qed.
Theorem C12_ring_membership_winding : forall vs p, NoDup vs -> (3 <= length vs)%nat ->
  in_ringb (ring_edges (rev vs)) p = in_ringb (ring_edges vs) p.
Proof. exact in_ringb_winding. Qed.
Theorem C12_polygon_membership_start_vertex : forall k e hs p,
  NoDup e -> (3 <= length e)%nat -> (forall h, In h hs -> NoDup h /\ (3 <= length h)%nat) ->
  poly_contains_point (Pg (rot k e) (map (rot k) hs)) p = poly_contains_point (Pg e hs) p.
Proof. exact poly_contains_point_start_vertex. Qed.
Theorem C12_polygon_membership_winding : forall e hs p,
  NoDup e -> (3 <= length e)%nat -> (forall h, In h hs -> NoDup h /\ (3 <= length h)%nat) ->
  poly_contains_point (Pg (rev e) (map (@rev pt) hs)) p = poly_contains_point (Pg e hs) p.
Proof. exact poly_contains_point_winding. Qed.
Theorem C12_ring_ring_intersects_start_vertex : forall k ps qs, NoDup ps -> NoDup qs ->
  ring_intersects_ring (RS {| closed := true; pts := rot k ps |}) (RS {| closed := true; pts := rot k qs |}) true =
  ring_intersects_ring (RS {| closed := true; pts := ps |}) (RS {| closed := true; pts := qs |}) true.
Proof. exact ring_intersects_ring_start_vertex. Qed.
Theorem C12_ring_ring_intersects_winding : forall ps qs, NoDup ps -> NoDup qs ->
  ring_intersects_ring (RS {| closed := true; pts := rev ps |}) (RS {| closed := true; pts := rev qs |}) true =
  ring_intersects_ring (RS {| closed := true; pts := ps |}) (RS {| closed := true; pts := qs |}) true.
Proof. exact ring_intersects_ring_winding. Qed.
Theorem C12_ring_line_intersects_start_vertex : forall k ps qs, NoDup ps -> (3 <= length ps)%nat ->
  ring_intersects_line (RS {| closed := true; pts := rot k ps |}) (RS {| closed := false; pts := qs |}) true =
  ring_intersects_line (RS {| closed := true; pts := ps |}) (RS {| closed := false; pts := qs |}) true.
Proof. exact ring_intersects_line_start_vertex. Qed.
Theorem C12_ring_line_intersects_winding : forall ps qs, NoDup ps -> (3 <= length ps)%nat ->
  ring_intersects_line (RS {| closed := true; pts := rev ps |}) (RS {| closed := false; pts := qs |}) true =
  ring_intersects_line (RS {| closed := true; pts := ps |}) (RS {| closed := false; pts := qs |}) true.
Proof. exact ring_intersects_line_winding. Qed.
Example C12_reorder_hypotheses_hold_somewhere :
  let vs := [(0,0);(8,0);(8,8);(4,4);(0,8)] in
  NoDup vs /\ rot 2 vs = [(8,8);(4,4);(0,8);(0,0);(8,0)] /\
  in_ringb (ring_edges (rot 2 vs)) (4,5) = false /\ in_ringb (ring_edges (rev vs)) (2,5) = true.
Proof. exact reorder_example. Qed.

(* segment x segment, line string x line string and line membership under the reflections and the transposition *)
Theorem C12_segment_intersects_mirror_x : forall s o, intersects_segment (mirs s) (mirs o) = intersects_segment s o.
Proof. exact intersects_segment_mx. Qed.
Theorem C12_segment_intersects_mirror_y : forall s o, intersects_segment (mys s) (mys o) = intersects_segment s o.
Proof. exact intersects_segment_my. Qed.
Theorem C12_segment_intersects_transpose : forall s o, intersects_segment (trs s) (trs o) = intersects_segment s o.
Proof. exact intersects_segment_tr. Qed.
Theorem C12_line_intersects_line_mirror_x : forall ps qs,
  line_intersects_line (Lr (map mir ps)) (Lr (map mir qs)) = line_intersects_line (Lr ps) (Lr qs).
Proof. exact line_intersects_line_mx. Qed.
Theorem C12_line_intersects_line_mirror_y : forall ps qs,
  line_intersects_line (Lr (map my ps)) (Lr (map my qs)) = line_intersects_line (Lr ps) (Lr qs).
Proof. exact line_intersects_line_my. Qed.
Theorem C12_line_intersects_line_transpose : forall ps qs,
  line_intersects_line (Lr (map tr ps)) (Lr (map tr qs)) = line_intersects_line (Lr ps) (Lr qs).
Proof. exact line_intersects_line_tr. Qed.
Theorem C12_line_membership_mirror_x : forall ps p, line_contains_point_r (Lr (map mir ps)) (mir p) = line_contains_point_r (Lr ps) p.
Proof. exact line_contains_point_mx. Qed.
Theorem C12_line_membership_mirror_y : forall ps p, line_contains_point_r (Lr (map my ps)) (my p) = line_contains_point_r (Lr ps) p.
Proof. exact line_contains_point_my. Qed.
Theorem C12_line_membership_transpose : forall ps p, line_contains_point_r (Lr (map tr ps)) (tr p) = line_contains_point_r (Lr ps) p.
Proof. exact line_contains_point_tr. Qed.

Print Assumptions C12_raycast_affine.
Print Assumptions C12_crossing_parity.
Print Assumptions C12_ring_membership_mirror_x.
Print Assumptions C12_ring_membership_mirror_y.
Print Assumptions C12_ring_membership_transpose.
Print Assumptions C12_polygon_membership_transpose.
Print Assumptions C12_ring_ring_intersects_mirror_y.
Print Assumptions C12_ring_ring_intersects_transpose.
Print Assumptions C12_ring_line_intersects_mirror_y.
Print Assumptions C12_pair_predicates_translation_scaling.
Print Assumptions C12_intersects_segment_affine.
Print Assumptions C12_polygon_membership_affine.
Print Assumptions C12_membership_candidate_order.
Print Assumptions C12_convex_start_vertex.
Print Assumptions C12_line_contains_line_mirror_x.
Print Assumptions C12_line_contains_line_transpose.
Print Assumptions C12_polygon_membership_winding.
Print Assumptions C12_ring_ring_intersects_start_vertex.
Print Assumptions C12_line_intersects_line_transpose.
