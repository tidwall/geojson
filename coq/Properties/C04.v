(* Property C04 — the compressed quadtree / R-tree segment indexes are exact
   accelerators.  Only statements, each closed by the lemma that proves it.
   [mid] (the quadtree's mid-line function, (min+max)/2 in float64) and the
   float64 byte codec [fenc]/[fdec] are universally quantified: nothing depends
   on what [mid] returns, which is why rounding or overflow of the mid-lines
   cannot lose a segment. *)
From Coq Require Import Sorting.Permutation.
From GJ Require Import Base Kernel Series SeriesSpec Index IndexExec QTreeProofs RTreeProofs CodecQProofs CodecRProofs IndexSeriesProofs Ring RingSpec KernelSpec PipProofs IndexChoice IndexChoice2.

(* quadtree built by successive inserts of items 0..n-1 (qtree.go:insert):
   a search reports exactly the items whose rectangle meets the query *)
Theorem C04_qtree_search_exact : forall (mid : Z -> Z -> Z) (rect_of : Z -> rect) bounds n q,
  (forall i, (i < n)%nat -> let r := rect_of (Z.of_nat i) in
     px (fst r) <= px (snd r) /\ py (fst r) <= py (snd r) /\ rect_contains_rect bounds r = true) ->
  Permutation (qsearch mid rect_of (S qMaxDepth) (qbuild mid rect_of bounds n) bounds q)
              (filter (fun it => rect_intersects_rect (rect_of it) q) (map Z.of_nat (seq 0 n))).
Proof. exact qbuild_search_exact. Qed.

(* ... each exactly once *)
Theorem C04_qtree_search_nodup : forall (mid : Z -> Z -> Z) (rect_of : Z -> rect) bounds n q,
  (forall i, (i < n)%nat -> let r := rect_of (Z.of_nat i) in
     px (fst r) <= px (snd r) /\ py (fst r) <= py (snd r) /\ rect_contains_rect bounds r = true) ->
  NoDup (qsearch mid rect_of (S qMaxDepth) (qbuild mid rect_of bounds n) bounds q).
Proof. exact qbuild_search_nodup. Qed.

(* an item that does not straddle a mid-line goes to a quadrant that contains it *)
Theorem C04_choose_quad : forall (mid : Z -> Z -> Z) bounds r q,
  rect_contains_rect bounds r = true -> choose_quad mid bounds r = q -> q <> -1 ->
  (0 <= q <= 3) /\ rect_contains_rect (quad_bounds mid bounds q) r = true.
Proof. exact choose_quad_within. Qed.

(* the compressed quadtree bytes searched by qCompressSearch give the tree search,
   with every read in bounds (the result is Some _), for 1/2/4-byte item widths *)
Theorem C04_qtree_codec : forall (mid : Z -> Z -> Z) (rect_of : Z -> rect) bounds n q,
  Z.of_nat n < 2 ^ 32 ->
  let data := set_compressed 2 (qenc (S qMaxDepth) 5 (qbuild mid rect_of bounds n)) in
  Z.of_nat (length data) < 2 ^ 32 ->
  qcsearch mid rect_of (S (S qMaxDepth)) data 5 bounds q
  = Some (qsearch mid rect_of (S qMaxDepth) (qbuild mid rect_of bounds n) bounds q).
Proof. exact q_codec_build. Qed.

(* R-tree built by successive inserts (rtree.go): exact and duplicate-free *)
Theorem C04_rtree_search_exact : forall (rect_of : Z -> rect) n q,
  (forall i, (i < n)%nat -> let r := rect_of (Z.of_nat i) in
     px (fst r) <= px (snd r) /\ py (fst r) <= py (snd r)) ->
  match rroot (rbuild rect_of n) with
  | None => n = 0%nat
  | Some r => Permutation (rsearch rect_of r q)
                (filter (fun it => rect_intersects_rect (rect_of it) q) (map Z.of_nat (seq 0 n)))
  end.
Proof. exact rbuild_search_exact. Qed.

Theorem C04_rtree_search_nodup : forall (rect_of : Z -> rect) n q,
  (forall i, (i < n)%nat -> let r := rect_of (Z.of_nat i) in
     px (fst r) <= px (snd r) /\ py (fst r) <= py (snd r)) ->
  match rroot (rbuild rect_of n) with
  | None => True
  | Some r => NoDup (rsearch rect_of r q)
  end.
Proof. exact rbuild_search_nodup. Qed.

(* node counts: at most 16 kids in every node after every insert (so byte(count) is lossless),
   uniform leaf depth = height.  The state inside an insert (17 kids, at the root only) is
   RTreeProofs.rbuild_transient. *)
Theorem C04_rtree_counts : forall (rect_of : Z -> rect) n,
  (forall i, (i < n)%nat -> let r := rect_of (Z.of_nat i) in
     px (fst r) <= px (snd r) /\ py (fst r) <= py (snd r)) ->
  match rroot (rbuild rect_of n) with
  | None => n = 0%nat
  | Some r => max_kids 16 r /\ rwf rect_of (rheight (rbuild rect_of n)) r
  end.
Proof. exact rbuild_counts. Qed.

(* the compressed R-tree bytes searched by rCompressSearch give the tree search
   (every read in bounds), for any 8-byte float codec that round-trips *)
Theorem C04_rtree_codec : forall (rect_of : Z -> rect) (fenc : Z -> list Z) (fdec : list Z -> option Z),
  (forall x, length (fenc x) = 8%nat) -> (forall x, fdec (fenc x) = Some x) ->
  forall (t : rtree) q,
  match rroot t with Some r => rshape (rheight t) r | None => True end ->
  (rheight t <= 255)%nat ->
  let data := set_compressed 1 (rtenc fenc t) in
  Z.of_nat (length data) < 2 ^ 32 ->
  rcsearch rect_of fdec data 5 q
  = Some match rroot t with Some r => rsearch rect_of r q | None => [] end.
Proof. exact r_codec. Qed.

(* ... and the trees built by inserts have the shape the codec needs *)
Theorem C04_rtree_built_shape : forall (rect_of : Z -> rect) n, Z.of_nat n <= 2 ^ 32 ->
  match rroot (rbuild rect_of n) with
  | None => True
  | Some r => rshape (rheight (rbuild rect_of n)) r
  end.
Proof. exact rbuild_shape. Qed.

(* at the level of a series (baseSeries.Search): for EVERY index kind the reported segments are
   a permutation of the brute-force answer - exactly the segments whose rectangle meets the query *)
Theorem C04_series_search_exact : forall kind s q, Permutation (series_search kind s q) (search_spec s q).
Proof. exact series_search_exact. Qed.
Theorem C04_series_search_once : forall s q,
  NoDup (series_search 1 s q) /\ NoDup (series_search 2 s q).
Proof. intros s q. split; apply series_search_nodup. Qed.
(* Move rebuilds rectangle and index from the moved points *)
Theorem C04_series_search_after_move : forall kind s dx dy q,
  Permutation (series_search kind (series_move s dx dy) q) (search_spec (series_move s dx dy) q).
Proof. exact series_search_moved_exact. Qed.
(* searching the compressed quadtree bytes of a series = the tree search, every read in bounds *)
Theorem C04_series_qtree_bytes : forall sc s q,
  Z.of_nat (length (seg_rects s)) < 2 ^ 32 -> Z.of_nat (length (build_index_bytes sc 2 s)) < 2 ^ 32 ->
  series_search_bytes sc 2 s q = Some (series_search 2 s q).
Proof. exact series_search_qtree_bytes. Qed.

(* from "the same SET of candidates" to "the same answer": ringContainsSegment consumes the index of the
   ring segment on which an end of the probe was found; at a shared vertex that index depends on the
   order in which the index delivers candidates.  [rcs_with] is ringContainsSegment with the two
   point-search results as parameters; for a ring whose segments meet only at their ends any two valid
   reports (the hit flag, and for a boundary point the index of SOME segment through it) give the same
   answer; without contact the indices are not consulted at all *)
Theorem C04_contains_segment_is_rcs_with : forall r sg allow,
  ring_contains_segment r sg allow =
  rcs_with r sg allow (ring_contains_point r (fst sg) allow) (ring_contains_point r (snd sg) allow).
Proof. exact rcs_with_model. Qed.
Theorem C04_contains_segment_index_choice : forall r a b resA resA' resB resB',
  meets_at_ends r ->
  valid_res r a true resA -> valid_res r a true resA' -> valid_res r b true resB -> valid_res r b true resB' ->
  fst (rcs_with r (a, b) true resA resB) = fst (rcs_with r (a, b) true resA' resB').
Proof. exact rcs_choice_independent. Qed.
Theorem C04_contains_segment_strict_ignores_indices : forall r sg resA resA' resB resB',
  fst resA = fst resA' -> fst resB = fst resB' ->
  fst (rcs_with r sg false resA resB) = fst (rcs_with r sg false resA' resB').
Proof. exact rcs_strict_ignores_indices. Qed.
(* ... and every order in which the candidates of the strip query are delivered yields a valid report, so
   ringContainsSegment computed from point searches over differently ordered candidate lists (no index,
   quadtree, R-tree) gives one answer; in index order it is the model *)
Theorem C04_point_search_any_order_valid : forall r p allow l,
  Permutation l (strip_search r (py p)) -> rect_contains_point (ring_rect r) p = true ->
  valid_res r p allow (search_in_order r p allow l).
Proof. exact any_order_valid. Qed.
Theorem C04_contains_segment_any_candidate_order : forall r a b la la' lb lb',
  meets_at_ends r ->
  Permutation la (strip_search r (py a)) -> Permutation la' (strip_search r (py a)) ->
  Permutation lb (strip_search r (py b)) -> Permutation lb' (strip_search r (py b)) ->
  fst (rcs_with r (a, b) true (search_in_order r a true la) (search_in_order r b true lb)) =
  fst (rcs_with r (a, b) true (search_in_order r a true la') (search_in_order r b true lb')).
Proof. exact rcs_any_candidate_order. Qed.
Theorem C04_index_order_is_the_model : forall r a b,
  ring_contains_segment r (a, b) true =
  rcs_with r (a, b) true (search_in_order r a true (strip_search r (py a))) (search_in_order r b true (strip_search r (py b))).
Proof. exact rcs_index_order. Qed.
Example C04_meets_at_ends_holds_somewhere : meets_at_ends (RS {| closed := true; pts := [(0,0);(4,0);(0,4)] |}).
Proof. exact triangle_meets_at_ends. Qed.

Print Assumptions C04_series_search_exact.
Print Assumptions C04_series_qtree_bytes.
Print Assumptions C04_qtree_search_exact.
Print Assumptions C04_qtree_search_nodup.
Print Assumptions C04_choose_quad.
Print Assumptions C04_qtree_codec.
Print Assumptions C04_rtree_search_exact.
Print Assumptions C04_rtree_search_nodup.
Print Assumptions C04_rtree_counts.
Print Assumptions C04_rtree_codec.
Print Assumptions C04_rtree_built_shape.
Print Assumptions C04_contains_segment_index_choice.
Print Assumptions C04_contains_segment_any_candidate_order.
