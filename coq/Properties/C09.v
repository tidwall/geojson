(* Property C09 — object-level predicates form a consistent algebra across the
   kinds.  PARTIAL: the dispatch algebra and the transparency of wrappers and
   alternative representations are kernel-checked below for the eleven modelled
   kinds (Circle is modelled over the reals, C13); the laws that lean on the
   geometry-level predicates being exact (intersects symmetric, contains =>
   intersects, self containment) are proved under the side conditions their
   statements carry (polygon holes, arguments of 16 points and more, rings that
   run through their own vertices are outside them); beyond those they are
   checked on every run as law flags computed from the implementation's own answers. *)
From Coq Require Import Lia.
From GJ Require Import Base Kernel Series Ring PairSpec Pairs PairProofs Obj ObjSpec ObjProofs BoxLaws ContainsBoxes CoversBoxes
  JordanRing JordanRect ObjSym ObjSelf ObjLaws ObjLaws2 ObjLaws3 ObjSelf2 ObjSelf3.
Open Scope Z_scope.

Theorem C09_within_is_contains_swapped : forall a b, o_within a b = o_contains b a.
Proof. exact within_is_contains_swapped. Qed.

(* a Feature answers as its geometry *)
Theorem C09_feature_receiver_contains : forall a b, o_contains (OFeature a) b = o_contains a b.
Proof. exact feature_receiver_contains. Qed.
Theorem C09_feature_receiver_intersects : forall a b, o_intersects (OFeature a) b = o_intersects a b.
Proof. exact feature_receiver_intersects. Qed.
Theorem C09_feature_attributes : forall a,
  o_empty (OFeature a) = o_empty a /\ o_rect (OFeature a) = o_rect a /\ o_npoints (OFeature a) = o_npoints a
  /\ forall l180 l90, o_valid l180 l90 (OFeature a) = o_valid l180 l90 a.
Proof. exact feature_attrs. Qed.
Theorem C09_feature_argument_contains : forall a b,
  ends_in_coll b = false -> o_contains a (OFeature b) = o_contains a b.
Proof. exact feature_argument_contains. Qed.
Theorem C09_feature_argument_intersects : forall a b,
  ends_in_coll b = false -> o_intersects a (OFeature b) = o_intersects a b.
Proof. exact feature_argument_intersects. Qed.

(* a SimplePoint answers as the equivalent Point *)
Theorem C09_simplepoint_receiver : forall p b,
  o_contains (OSimple p) b = o_contains (OPoint p) b /\ o_intersects (OSimple p) b = o_intersects (OPoint p) b.
Proof. exact simplepoint_receiver. Qed.
Theorem C09_simplepoint_argument : forall a p,
  o_contains a (OSimple p) = o_contains a (OPoint p) /\ o_intersects a (OSimple p) = o_intersects a (OPoint p).
Proof. exact simplepoint_argument. Qed.

(* leaf objects answer as the geometry-level predicates on their base geometry *)
Theorem C09_leaf_contains : forall a b ga gb,
  leaf_geom a = Some ga -> leaf_geom b = Some gb -> o_contains a b = gcb ga gb.
Proof. exact leaf_contains. Qed.
Theorem C09_leaf_intersects : forall a b ga gb,
  leaf_geom a = Some ga -> leaf_geom b = Some gb -> o_intersects a b = g_intersects gb ga.
Proof. exact leaf_intersects. Qed.

(* if A intersects B their rectangles intersect: every pair of the eleven kinds, any nesting *)
Theorem C09_intersects_implies_rects_meet : forall a b, obj_wf a -> obj_wf b ->
  o_intersects a b = true -> rect_intersects_rect (o_rect a) (o_rect b) = true.
Proof. exact o_intersects_boxes. Qed.
(* if A contains a non-empty B their rectangles meet (weaker than C09_contains_implies_rect_covers below) *)
Theorem C09_contains_implies_rects_meet_partial : forall a b, obj_wf a -> obj_wf b -> o_empty b = false ->
  o_contains a b = true -> rect_intersects_rect (o_rect a) (o_rect b) = true.
Proof. exact o_contains_boxes. Qed.

(* if A contains a non-empty B then A's rectangle covers B's: all sixteen geometry pairs (the Line.ContainsLine
   walk included), Features, collections, nested *)
Theorem C09_contains_implies_rect_covers : forall a b, obj_wf a -> obj_wf b -> o_empty b = false ->
  o_contains a b = true -> rect_contains_rect (o_rect a) (o_rect b) = true.
Proof. exact o_contains_covers. Qed.

(* A.Intersects(B) = B.Intersects(A) at the Geometry interface, all sixteen kind pairs, any
   shapes; excluded: two polygons of which one carries holes (JordanRing.v: ring x ring is exact as
   point sets, hence symmetric; the other pairs delegate to one implementation or are exact) *)
Theorem C09_geometry_intersects_symmetric : forall a b, no_hole_pair a b ->
  g_intersects (g_of_shape a) (g_of_shape b) = g_intersects (g_of_shape b) (g_of_shape a).
Proof. exact g_intersects_sym. Qed.

(* ... and at the object level: any two trees of the eleven modelled kinds (Features, the five
   collections, nested; rectangles well-formed), provided no polygon with holes faces a polygon.
   Both answers are "some leaf of B intersects some leaf of A". *)
Theorem C09_intersects_symmetric : forall a b, obj_wf a -> obj_wf b ->
  (forall x y, In x (sleaves a) -> In y (sleaves b) -> no_hole_pair x y) ->
  o_intersects a b = o_intersects b a.
Proof. exact o_intersects_sym. Qed.
Theorem C09_intersects_is_leafwise : forall a b, obj_wf a -> obj_wf b ->
  (o_intersects a b = true <->
   exists x y, In x (sleaves a) /\ In y (sleaves b) /\ g_intersects (g_of_shape y) (g_of_shape x) = true).
Proof. exact o_intersects_flat. Qed.
(* non-vacuity: a GeometryCollection holding a polygon with a hole and a line, against a Feature
   of a collection of a point (inside the hole), a rectangle and a far line *)
Example C09_symmetric_hypotheses_hold_somewhere :
  let a := OColl 3 [OPoly [[(0,0);(8,0);(8,8);(0,8);(0,0)]; [(2,2);(4,2);(4,4);(2,4);(2,2)]]; OLine [(9,9);(12,12)]] in
  let b := OFeature (OColl 3 [OPoint (3,3); ORect ((7,7),(10,10)); OLine [(20,20);(22,20);(22,22)]]) in
  obj_wf a /\ obj_wf b /\
  (forall x y, In x (sleaves a) -> In y (sleaves b) -> no_hole_pair x y) /\
  o_intersects a b = true /\ o_intersects b a = true.
Proof.
  cbv zeta. split; [cbn; tauto|]. split; [cbn; unfold rect_wf; cbn; lia|]. split.
  - cbn [sleaves flat_map app poly_shape]. intros x y [<-|[<-|[]]] [<-|[<-|[<-|[]]]]; cbn; auto.
  - split; vm_compute; reflexivity.
Qed.

(* a non-empty object intersects itself (rectangles well-formed, polygons without holes) *)
Theorem C09_intersects_self : forall a, obj_wf a -> o_empty a = false ->
  (forall x, In x (sleaves a) -> s_wf x) -> o_intersects a a = true.
Proof. exact o_intersects_self. Qed.

(* if A contains a non-empty B then A intersects B — Geometry interface, receivers Point and Rect
   (whose Contains is decided by rectangles), all four argument kinds (polygons without holes) *)
Theorem C09_contains_implies_intersects_partial : forall a b,
  rect_decided a -> s_wf a -> s_wf b -> s_empty b = false ->
  g_contains (g_of_shape a) (g_of_shape b) = Some true ->
  g_intersects (g_of_shape a) (g_of_shape b) = true.
Proof. intros a b Hd Ha Hb _. exact (g_contains_intersects a b Hd Ha Hb). Qed.
Theorem C09_contains_point_implies_intersects : forall a q,
  g_contains (g_of_shape a) (GPoint q) = Some true -> g_intersects (g_of_shape a) (GPoint q) = true.
Proof. exact g_contains_point_intersects. Qed.
(* ... Line receivers (all argument kinds, polygons without holes) and Polygon receivers (holes allowed
   in the receiver; the argument has fewer than 16 points — below the bounding-box shortcut of
   ringContainsRing — and no holes) *)
Theorem C09_line_contains_implies_intersects : forall ps b, s_wf b ->
  g_contains (g_of_shape (SLine ps)) (g_of_shape b) = Some true ->
  g_intersects (g_of_shape (SLine ps)) (g_of_shape b) = true.
Proof. intros ps b Hb. apply g_contains_intersects_all; [exact I|exact Hb|exact I]. Qed.
Theorem C09_polygon_contains_implies_intersects : forall e hs b, s_wf b -> short b ->
  g_contains (g_of_shape (SPoly e hs)) (g_of_shape b) = Some true ->
  g_intersects (g_of_shape (SPoly e hs)) (g_of_shape b) = true.
Proof. intros e hs b Hb Hs. apply g_contains_intersects_all; [exact I|exact Hb|exact Hs]. Qed.
(* ... and at the object level, through Features, collections and nesting: A.Contains(B) for a
   non-empty B implies A.Intersects(B) *)
Theorem C09_contains_implies_intersects_objects : forall a b, obj_wf a -> obj_wf b ->
  (forall x, In x (sleaves a) -> recv_ok x) -> (forall y, In y (sleaves b) -> arg_ok y) ->
  (forall x y, In x (sleaves a) -> In y (sleaves b) -> no_hole_pair x y) ->
  o_empty b = false -> o_contains a b = true -> o_intersects a b = true.
Proof. exact o_contains_intersects. Qed.
Example C09_contains_intersects_objects_hypotheses_hold_somewhere :
  obj_wf law_a /\ obj_wf law_b /\ (forall x, In x (sleaves law_a) -> recv_ok x) /\ (forall y, In y (sleaves law_b) -> arg_ok y) /\
  (forall x y, In x (sleaves law_a) -> In y (sleaves law_b) -> no_hole_pair x y) /\
  o_empty law_b = false /\ o_contains law_a law_b = true.
Proof.
  split; [cbn; tauto|]. split; [cbn; unfold rect_wf, px, py; cbn; lia|].
  split; [intros x Hx; cbn in Hx; repeat (destruct Hx as [<-|Hx]; [exact I|]); destruct Hx|].
  split; [intros y Hy; cbn in Hy; repeat (destruct Hy as [<-|Hy]; [split; cbn; try exact I; try reflexivity; try lia; unfold rect_wf, px, py; cbn; lia|]); destruct Hy|].
  split; [intros x y Hx Hy; cbn in Hy; repeat (destruct Hy as [<-|Hy]; [destruct x; exact I|]); destruct Hy|].
  split; vm_compute; reflexivity.
Qed.
(* a non-empty object contains itself: at the Geometry interface (rectangles min <= max; no
   vertex of a polygon ring in the interior of an edge of the same ring - weaker than simplicity;
   holes allowed) and at the object level through Features, collections and nesting *)
Theorem C09_geometry_contains_self : forall s, self_ok s -> s_empty s = false ->
  g_contains (g_of_shape s) (g_of_shape s) = Some true.
Proof. exact g_contains_self. Qed.
Theorem C09_contains_self : forall a, obj_wf a -> (forall x, In x (sleaves a) -> self_ok x) ->
  o_empty a = false -> o_contains a a = true.
Proof. exact o_contains_self. Qed.
Example C09_contains_self_hypotheses_hold_somewhere :
  self_ok (SPoly [(0,0);(8,0);(8,8);(4,4);(0,8);(0,0)] [[(1,1);(3,1);(2,3);(1,1)]]) /\
  o_empty self_a = false /\ o_contains self_a self_a = true.
Proof. split; [exact self_ok_concave|exact self_objects]. Qed.
Example C09_self_and_contains_hypotheses_hold_somewhere :
  let a := OColl 3 [OPoly [[(0,0);(8,0);(8,8);(0,8);(0,0)]]; OLine [(9,9);(12,12)]; OLine []] in
  obj_wf a /\ o_empty a = false /\ (forall x, In x (sleaves a) -> s_wf x) /\
  g_contains (g_of_shape (SRect ((0,0),(9,9)))) (g_of_shape (SPoly [(1,1);(3,1);(3,3);(1,1)] [])) = Some true.
Proof.
  cbv zeta. split; [cbn; tauto|]. split; [vm_compute; reflexivity|]. split.
  - cbn [sleaves flat_map app poly_shape]. intros x [<-|[<-|[<-|[]]]]; cbn; auto.
  - vm_compute. reflexivity.
Qed.

(* a Rect used as a ring is the ring of its five corner points: the same record, so every
   ring-level algorithm answers alike on both *)
Theorem C09_rect_is_its_five_point_ring : forall q, rect_wf q ->
  RR q = RS {| closed := true; pts := rect_points q |}.
Proof. exact RR_as_RS. Qed.
Theorem C09_rect_poly_is_five_point_polygon : forall q, rect_wf q ->
  rect_poly q = Pg (rect_points q) [].
Proof. exact rect_poly_Pg. Qed.

(* non-vacuity: a rectangle containing a two-point line *)
Example C09_covers_hypotheses_hold_somewhere : obj_wf (ORect ((0,0),(4,4))) /\ obj_wf (OLine [(1,1);(3,2)]) /\ o_empty (OLine [(1,1);(3,2)]) = false /\
  o_contains (ORect ((0,0),(4,4))) (OLine [(1,1);(3,2)]) = true.
Proof. repeat split; try (cbn; lia); vm_compute; reflexivity. Qed.

Print Assumptions C09_intersects_implies_rects_meet.
Print Assumptions C09_geometry_intersects_symmetric.
Print Assumptions C09_intersects_symmetric.
Print Assumptions C09_intersects_is_leafwise.
Print Assumptions C09_intersects_self.
Print Assumptions C09_contains_implies_intersects_partial.
Print Assumptions C09_line_contains_implies_intersects.
Print Assumptions C09_polygon_contains_implies_intersects.
Print Assumptions C09_contains_implies_intersects_objects.
Print Assumptions C09_geometry_contains_self.
Print Assumptions C09_contains_self.
Print Assumptions C09_rect_is_its_five_point_ring.
Print Assumptions C09_rect_poly_is_five_point_polygon.
Print Assumptions C09_contains_implies_rect_covers.
Print Assumptions C09_contains_implies_rects_meet_partial.
Print Assumptions C09_feature_argument_contains.
Print Assumptions C09_simplepoint_argument.
Print Assumptions C09_leaf_contains.
