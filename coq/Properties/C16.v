(* Property C16 — objects are immutable: concurrent queries are race-free and
   deterministic.  PARTIAL: the logic is kernel-checked — threads whose every
   store targets memory of their own call cannot race and end, under ANY
   schedule, exactly where they end when run alone, the shared heap unchanged.
   That the Go code has this shape is established on every run by the
   translator tools/effects (go/ssa): it regenerates the effect table of every
   store-like instruction reachable from the query / serialisation API, and the
   generated file closes [table_ok effect_table = true] by computation
   (Effects.v and EffectsCheck.v, which lib/extra_steps.py writes into the run's
   scratch directory; counted as an obligation of this property).
   Real schedules are additionally observed under the race detector. *)
From Coq Require Import List ZArith.
From GJ Require Import Interleave.
Import ListNotations.

Theorem C16_schedule_irrelevant : forall sched sh ts, all_ok ts ->
  fst (run (sh, ts) sched) = sh /\
  forall k t, nth_error ts k = Some t ->
    nth_error (snd (run (sh, ts) sched)) k = Some (solo sh t (count k sched)).
Proof. exact readonly_interleaving. Qed.

Theorem C16_race_free : forall p q i j,
  prog_ok p = true -> prog_ok q = true -> In i p -> In j q -> conflict i j = false.
Proof. exact no_conflict. Qed.

Theorem C16_table_suffices : forall (A : Type) (table : list (A * Z)) ts sh sched,
  table_ok table = true ->
  (forall t, In t ts -> forall i, In i (code t) -> In i (abstract_prog table)) ->
  fst (run (sh, ts) sched) = sh /\
  forall k t, nth_error ts k = Some t -> nth_error (snd (run (sh, ts) sched)) k = Some (solo sh t (count k sched)).
Proof. intros A. exact (@table_ok_interleaving A). Qed.

(* non-vacuity: two threads copying shared cells into their own heaps, interleaved *)
Example C16_example :
  let i1 := {| src_shared := true; src := 0; dst_shared := false; dst := 1 |} in
  let i2 := {| src_shared := true; src := 0; dst_shared := false; dst := 2 |} in
  let ts := [{| priv := fun _ => 0%Z; code := [i1; i1] |}; {| priv := fun _ => 0%Z; code := [i2] |}] in
  all_ok ts /\ fst (run ((fun _ => 7%Z), ts) [0; 1; 0]%nat) 0%nat = 7%Z.
Proof. cbn. split; [|reflexivity]. intros t [<-|[<-|[]]]; reflexivity. Qed.

Print Assumptions C16_schedule_irrelevant.
Print Assumptions C16_race_free.
Print Assumptions C16_table_suffices.
