(* Property C15 — great-circle primitives are mutually consistent.  PARTIAL: the
   statements below are proved of the real-valued formulas of geo/geo.go
   (coq/Sphere.v); Go's float64 rounding is bounded per sampled input by certified
   interval enclosures on every run.  The destination clauses (distance back; of
   the bearing back, the two arguments of its Atan2) are proved over the reals too
   (SphereDest.v), the code's two Atan2 calls entering through their defining
   property; in float64 they, the
   semicircle encoding and monotonicity are checked as flags over generated
   inputs. *)
From Coq Require Import Reals ZArith Lra.
From GJ Require Import Sphere SphereRect SphereDest SphereTriangle SphereSemi.
Open Scope R_scope.

Theorem C15_distance_symmetric : forall a b c d, distance_to a b c d = distance_to c d a b.
Proof. exact distance_sym. Qed.
Theorem C15_distance_zero : forall a b, distance_to a b a b = 0.
Proof. exact distance_refl. Qed.
Theorem C15_distance_range : forall a b c d, lat_ok a -> lat_ok c -> 0 <= distance_to a b c d <= piR.
Proof. exact distance_range. Qed.
Theorem C15_haversine_range : forall a b c d, lat_ok a -> lat_ok c -> 0 <= hav a b c d /\ hav a b c d <= 1.
Proof. exact hav_range. Qed.
Theorem C15_haversine_strictly_increasing : forall m1 m2,
  0 <= m1 -> m1 < m2 -> m2 <= piR -> dist_to_hav m1 < dist_to_hav m2.
Proof. exact dist_to_hav_increasing. Qed.
Theorem C15_metres_haversine_metres : forall m, 0 <= m <= piR -> dist_from_hav (dist_to_hav m) = m.
Proof. exact dist_hav_inverse. Qed.
Theorem C15_haversine_metres_haversine : forall h, 0 <= h <= 1 -> dist_to_hav (dist_from_hav h) = h.
Proof. exact hav_dist_inverse. Qed.
Theorem C15_normalize_keeps_haversine : forall m k, dist_to_hav (normalize m k) = dist_to_hav m.
Proof. exact normalize_keeps_hav. Qed.
Theorem C15_normalize_idempotent : forall m k, normalize (normalize m k) 0 = normalize m k.
Proof. exact normalize_idempotent. Qed.

(* whatever value the float haversine rounds to (even above 1: antipodal pairs, repaired by a5ec9f5),
   the metres DistanceFromHaversine returns never exceed half the circumference *)
Theorem C15_metres_never_exceed_half_circumference : forall h, dist_from_hav h <= piR.
Proof. exact dist_from_hav_le_piR. Qed.

(* the great-circle distance is a metric on the sphere: triangle inequality (with symmetry, zero on the
   diagonal and the range, proved above) *)
Theorem C15_distance_triangle : forall latA lonA latB lonB latC lonC, lat_ok latA -> lat_ok latB -> lat_ok latC ->
  distance_to latA lonA latC lonC <= distance_to latA lonA latB lonB + distance_to latB lonB latC lonC.
Proof. exact distance_triangle. Qed.

(* semicircle encoding: the round trip moves a coordinate by less than 180/2^31 degrees, under a centimetre of arc *)
Theorem C15_semicircle_roundtrip : forall x, Rabs (semi_to_degs (degs_to_semi x) - x) < 180 / 2 ^ 31.
Proof. exact semi_roundtrip. Qed.
Theorem C15_semicircle_roundtrip_on_the_ground : rad (180 / 2 ^ 31) * Rearth < 1 / 100.
Proof. exact semi_roundtrip_ground. Qed.

(* travelling d along bearing th from A: the haversine of (A, destination) is the haversine of d, the distance back
   is d, and the arguments of the initial-bearing atan2 are (sin th, cos th) * sin (d/R); that BearingTo's Atan2
   returns th on that pair is left out, like every Atan2.
   The code's Atan2 calls enter through their defining property (hypotheses lat_sin .. lon_sin of SphereDest.v) *)
Theorem C15_destination_distance_back : forall latA lonA latB lonB d th,
  let del := d / Rearth in let p1 := rad latA in
  let s := sin p1 * cos del + cos p1 * sin del * cos (rad th) in
  let X := cos del - sin p1 * s in let Y := sin (rad th) * sin del * cos p1 in
  sin (rad latB) = s -> 0 <= cos (rad latB) ->
  cos (rad lonB - rad lonA) * sqrt (X * X + Y * Y) = X ->
  0 < cos p1 -> 0 <= d <= piR ->
  distance_to latA lonA latB lonB = d.
Proof. exact destination_distance_back. Qed.

Theorem C15_destination_bearing_back : forall latA lonA latB lonB d th,
  let del := d / Rearth in let p1 := rad latA in
  let s := sin p1 * cos del + cos p1 * sin del * cos (rad th) in
  let X := cos del - sin p1 * s in let Y := sin (rad th) * sin del * cos p1 in
  sin (rad latB) = s -> 0 <= cos (rad latB) ->
  cos (rad lonB - rad lonA) * sqrt (X * X + Y * Y) = X ->
  sin (rad lonB - rad lonA) * sqrt (X * X + Y * Y) = Y ->
  0 < cos p1 ->
  sin (rad lonB - rad lonA) * cos (rad latB) = sin (rad th) * sin del /\
  cos p1 * sin (rad latB) - sin p1 * cos (rad latB) * cos (rad lonB - rad lonA) = cos (rad th) * sin del.
Proof. exact destination_bearing_back. Qed.

(* non-vacuity: from (0,0) eastwards by 10 degrees of arc; all hypotheses hold and the conclusion is used *)
Example C15_destination_example : distance_to 0 0 0 10 = Rearth * rad 10.
Proof.
  assert (Hd : Rearth * rad 10 / Rearth = rad 10) by (unfold Rearth; lra).
  assert (H90 : rad 90 = PI / 2) by (unfold rad; lra).
  assert (H0 : rad 0 = 0) by (unfold rad; lra).
  pose proof PI_RGT_0 as Hpi. pose proof PI_4 as Hpi4.
  assert (Hr : 0 < rad 10 < PI / 2) by (unfold rad; lra).
  apply (destination_distance_back 0 0 0 10 (Rearth * rad 10) 90); rewrite ?Hd, ?H90, ?H0, ?sin_0, ?cos_0, ?cos_PI2, ?sin_PI2.
  - ring.
  - lra.
  - rewrite !Rmult_0_l, !Rmult_1_l, !Rmult_1_r, !Rminus_0_r, Rplus_comm, sqr_sin_cos, sqrt_1. apply Rmult_1_r.
  - lra.
  - unfold piR, Rearth. lra.
Qed.

Print Assumptions C15_distance_range.
Print Assumptions C15_destination_distance_back.
Print Assumptions C15_metres_haversine_metres.
Print Assumptions C15_normalize_keeps_haversine.
