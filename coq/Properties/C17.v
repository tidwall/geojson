(* Property C17 — every constructible object serialises to well-formed GeoJSON, by appending.
   Kernel-checked for an arbitrary number formatter: the append contract, and that
   the byte-level writers (literal prefixes, member splice, position-index
   threading) emit exactly the text of a JSON object tree whose first member is
   "type" with the kind's name, a text of the RFC 8259 grammar.  For objects built
   through Parse the theorem's hypotheses are proved too (ParsedForm.v,
   ParsedLex.v): whatever Parse returns for a document of JSON tokens with finite
   numbers serialises to a text of the grammar, under every option set.  That the
   model's writers are the Go writers is checked on every run byte for byte; that
   the constructors (NewPoint .. NewFeature with arbitrary member strings) only
   build objects meeting the hypotheses is exercised by the same streams, not
   proved. *)
From GJ Require Import Base JsonConst Json JsonProofs EmitProofs JsonGrammar EmitWellFormed ParsedForm ParsedLex.

(* AppendJSON(prefix) = prefix followed by exactly JSON()'s bytes, the prefix untouched *)
Theorem C17_append_contract : forall (fmt : Z -> list Z) dst o,
  append_json fmt dst o = dst ++ emit fmt o /\
  firstn (length dst) (append_json fmt dst o) = dst /\
  skipn (length dst) (append_json fmt dst o) = append_json fmt [] o.
Proof. exact append_contract. Qed.

(* non-finite ordinates are written as null; finite ones only through the number formatter *)
Theorem C17_no_bare_nan : forall (fmt : Z -> list Z) f,
  match f with
  | FV k => emit_float fmt f = fmt k
  | FNull => emit_float fmt f = s_null
  | FBad => emit_float fmt f = bad_token
  end.
Proof. exact emit_float_cases. Qed.

(* alternative representations write the same bytes *)
Theorem C17_simplepoint_as_point : forall (fmt : Z -> list Z) p, emit fmt (JSimple p) = emit fmt (JPoint p None).
Proof. exact emit_simple_as_point. Qed.
Theorem C17_rect_as_polygon : forall (fmt : Z -> list Z) mn mx,
  emit fmt (JRect mn mx) = emit fmt (JPoly [fpt_rect_points mn mx] None).
Proof. exact emit_rect_as_polygon. Qed.

(* for every well-formed object (stored member texts are objects with at least one member; Multi*
   children are geometries) whose printed ordinates exist (no out-of-range read of the z/m array) and whose
   member texts are lexically JSON, and for every formatter that prints JSON numbers, the bytes written are a
   text of the RFC 8259 grammar (no whitespace) for an object whose first member is "type": <the kind's name> *)
Theorem C17_bytes_are_a_json_object : forall (fmt : Z -> list Z), (forall k, num_lexeme (fmt k) = true) ->
  forall o, wf_o o -> lex_o o ->
  json_text (emit fmt o) (emit_jv fmt o) /\
  exists rest, emit_jv fmt o = JObj ((key s_type, str_jv (type_name o)) :: rest).
Proof. exact emit_wellformed. Qed.
(* the byte-level writers print exactly a JSON tree *)
Theorem C17_writers_print_a_tree : forall (fmt : Z -> list Z) o, wf_o o -> emit fmt o = print_min (emit_jv fmt o).
Proof. exact emit_is_print. Qed.
(* the grammar contains the minified print of every lexically well-formed tree *)
Theorem C17_print_is_json : forall v, lex_ok v = true -> json_text (print_min v) v.
Proof. exact print_min_is_json. Qed.

(* objects built through Parse: no hypothesis on the object is left *)
Theorem C17_parsed_objects_write_json : forall (fmt : Z -> list Z), (forall k, num_lexeme (fmt k) = true) ->
  forall fuel o one v g, fin_doc v = true -> lex_ok v = true -> parse fuel o one v = POk g ->
  json_text (emit fmt g) (emit_jv fmt g) /\
  exists rest, emit_jv fmt g = JObj ((key s_type, str_jv (type_name g)) :: rest).
Proof. exact parsed_bytes_are_json. Qed.

Print Assumptions C17_bytes_are_a_json_object.
Print Assumptions C17_parsed_objects_write_json.
Print Assumptions C17_append_contract.
Print Assumptions C17_rect_as_polygon.
