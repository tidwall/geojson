(* PairProofs.v — theorems about the geometry-level pair predicates of Ring.v
   (properties C02, C03) for the pairs whose algorithm is within reach without
   the polygonal Jordan curve theorem: everything involving a point, rect x
   rect, line x line, rect containment, point containment; and operand-order
   symmetry of Intersects where it is structural.  Lr, Rg and Pg are the line,
   ring and polygon built from their points, the forms in which the later
   files state their theorems. *)
From Coq Require Import QArith.
From GJ Require Import Base Kernel KernelSpec KernelProofs IntersectsProofs Series SeriesSpec SeriesProofs
  Ring RingSpec PipProofs.
Open Scope Z_scope.

Definition in_rectQ (r : rect) (x y : Q) : Prop :=
  (inject_Z (px (fst r)) <= x)%Q /\ (x <= inject_Z (px (snd r)))%Q /\
  (inject_Z (py (fst r)) <= y)%Q /\ (y <= inject_Z (py (snd r)))%Q.

Definition rect_wf (r : rect) : Prop := px (fst r) <= px (snd r) /\ py (fst r) <= py (snd r).

(* rectangle tests as linear inequalities: the common last step of the lemmas about rectangles *)
Ltac rect_lia :=
  intros; rewrite ?rir_iff, ?rcr_iff, ?rect_contains_point_inbox in *; unfold rect_wf, inbox in *; cbn [fst snd px py] in *; lia.

Lemma rcr_refl (r : rect) : rect_contains_rect r r = true.
Proof. rect_lia. Qed.
Lemma rcr_rir (r o : rect) : rect_wf o -> rect_contains_rect r o = true -> rect_intersects_rect r o = true.
Proof. rect_lia. Qed.
Lemma two_points_meet (r o : rect) (p : pt) :
  rect_contains_point r p = true -> rect_contains_point o p = true -> rect_intersects_rect r o = true.
Proof. rect_lia. Qed.

Lemma inj_le a b : a <= b -> (inject_Z a <= inject_Z b)%Q.
Proof. intros H. rewrite <- Zle_Qle. exact H. Qed.
Lemma inj_le' a b : (inject_Z a <= inject_Z b)%Q -> a <= b.
Proof. intros H. rewrite Zle_Qle. exact H. Qed.

(* Rect x Rect: true exactly when the closed boxes share a (rational) point *)
Theorem rect_intersects_rect_meets (r o : rect) : rect_wf r -> rect_wf o ->
  (rect_intersects_rect r o = true <-> exists x y, in_rectQ r x y /\ in_rectQ o x y).
Proof.
  intros [W1 W2] [W3 W4]. rewrite rir_iff. split.
  - intros (H1 & H2 & H3 & H4).
    exists (inject_Z (Z.max (px (fst r)) (px (fst o)))), (inject_Z (Z.max (py (fst r)) (py (fst o)))).
    unfold in_rectQ. repeat split; apply inj_le; lia.
  - intros (x & y & (A1 & A2 & A3 & A4) & (B1 & B2 & B3 & B4)).
    repeat split; apply inj_le'; eapply Qle_trans; eassumption.
Qed.

Theorem rect_intersects_rect_sym (r o : rect) :
  rect_intersects_rect r o = rect_intersects_rect o r.
Proof.
  apply Bool.eq_true_iff_eq. rewrite !rir_iff. lia.
Qed.

(* Rect contains Rect: true exactly when every point of o's box is in r's box *)
Theorem rect_contains_rect_covers (r o : rect) : rect_wf o ->
  (rect_contains_rect r o = true <-> forall x y, in_rectQ o x y -> in_rectQ r x y).
Proof.
  intros [W1 W2]. rewrite rcr_iff. split.
  - intros (H1 & H2 & H3 & H4) x y (A1 & A2 & A3 & A4). unfold in_rectQ.
    split; [eapply Qle_trans; [apply inj_le, H1|exact A1]|].
    split; [eapply Qle_trans; [exact A2|apply inj_le, H2]|].
    split; [eapply Qle_trans; [apply inj_le, H3|exact A3]|].
    eapply Qle_trans; [exact A4|apply inj_le, H4].
  - intros H.
    destruct (H (inject_Z (px (fst o))) (inject_Z (py (fst o)))) as (A1 & A2 & A3 & A4).
    { unfold in_rectQ. repeat split; apply inj_le; lia. }
    destruct (H (inject_Z (px (snd o))) (inject_Z (py (snd o)))) as (B1 & B2 & B3 & B4).
    { unfold in_rectQ. repeat split; apply inj_le; lia. }
    repeat split; apply inj_le'; assumption.
Qed.

Definition Lr (ps : list pt) : rng := RS {| closed := false; pts := ps |}.
Definition Rg (ps : list pt) : rng := RS {| closed := true; pts := ps |}.
Definition Pg (e : list pt) (hs : list (list pt)) : poly :=
  {| exterior := Rg e; holes := map Rg hs |}.

(* what the proofs need to know of a line or ring built from its points *)
Lemma Lr_empty (ps : list pt) : ring_empty (Lr ps) = (length ps <? 2)%nat.
Proof. apply (RS_empty {| closed := false; pts := ps |}). Qed.

Lemma Rg_empty (ps : list pt) : ring_empty (Rg ps) = (length ps <? 3)%nat.
Proof. unfold ring_empty, Rg. rewrite RS_empty. apply closed_series_empty. Qed.

Lemma Lr_rect (ps : list pt) : (2 <= length ps)%nat -> ring_rect (Lr ps) = bbox_spec ps.
Proof.
  intros H. unfold ring_rect, Lr. rewrite RS_rect. apply (series_rect_spec {| closed := false; pts := ps |}).
  apply Nat.ltb_ge in H. exact H.
Qed.

Lemma Rg_rect (ps : list pt) : (3 <= length ps)%nat -> ring_rect (Rg ps) = bbox_spec ps.
Proof.
  intros H. unfold ring_rect, Rg. rewrite RS_rect. apply (series_rect_spec {| closed := true; pts := ps |}).
  rewrite closed_series_empty. apply Nat.ltb_ge. exact H.
Qed.

Lemma Lr_segs (ps : list pt) : ring_segments (Lr ps) = path_segs ps.
Proof. apply (RS_segs {| closed := false; pts := ps |}). Qed.

Lemma Rg_segs (ps : list pt) : ring_segments (Rg ps) = ring_edges ps.
Proof. apply (RS_segs {| closed := true; pts := ps |}). Qed.

Lemma Lr_pts (ps : list pt) : ring_points (Lr ps) = ps.
Proof. apply (RS_pts {| closed := false; pts := ps |}). Qed.

Lemma Rg_pts (ps : list pt) : ring_points (Rg ps) = ps.
Proof. apply (RS_pts {| closed := true; pts := ps |}). Qed.

Lemma Pg_empty (e : list pt) (hs : list (list pt)) : poly_empty (Pg e hs) = (length e <? 3)%nat.
Proof. apply Rg_empty. Qed.

Lemma Pg_rect (e : list pt) (hs : list (list pt)) : (3 <= length e)%nat -> poly_rect (Pg e hs) = bbox_spec e.
Proof. apply Rg_rect. Qed.

Lemma length_nonnil {A} (l : list A) (n : nat) : (S n <= length l)%nat -> l <> [].
Proof. intros H ->. inversion H. Qed.

Lemma and_iff_hyp (A B C : Prop) : (A -> (B <-> C)) -> (A /\ B <-> A /\ C).
Proof. tauto. Qed.

Theorem point_intersects_rect_spec p r : point_intersects_rect p r = in_rectb r p.
Proof. apply rect_contains_point_spec. Qed.
Theorem line_intersects_point_spec ps p : line_contains_point_r (Lr ps) p = in_lineb ps p.
Proof. apply line_contains_point_spec. Qed.
Theorem point_intersects_line_spec p ps : point_intersects_line p (Lr ps) = in_lineb ps p.
Proof. apply line_intersects_point_spec. Qed.
Theorem poly_intersects_point_spec e hs p :
  poly_contains_point (Pg e hs) p = in_polyb (ring_edges e) (map ring_edges hs) p.
Proof. apply poly_contains_point_spec. Qed.
Theorem point_intersects_poly_spec p e hs :
  point_intersects_poly p (Pg e hs) = in_polyb (ring_edges e) (map ring_edges hs) p.
Proof. apply poly_intersects_point_spec. Qed.

Lemma intersects_segment_boxes (s o : seg) :
  intersects_segment s o = true -> rect_intersects_rect (seg_rect o) (seg_rect s) = true.
Proof.
  destruct s as [a b], o as [c d]. unfold intersects_segment, intersects_segment_gen.
  destruct (axis_disjoint (py a) (py b) (py c) (py d)) eqn:Ey; [discriminate|].
  destruct (axis_disjoint (px a) (px b) (px c) (px d)) eqn:Ex; [discriminate|].
  intros _.
  assert (Hy : ~ (Z.max (py a) (py b) < Z.min (py c) (py d) \/ Z.max (py c) (py d) < Z.min (py a) (py b))).
  { intros H. apply axis_disjoint_iff in H. congruence. }
  assert (Hx : ~ (Z.max (px a) (px b) < Z.min (px c) (px d) \/ Z.max (px c) (px d) < Z.min (px a) (px b))).
  { intros H. apply axis_disjoint_iff in H. congruence. }
  apply rir_iff. unfold seg_rect, px, py in *; cbn [fst snd] in *. lia.
Qed.

Lemma existsb_swap {A B} (f : A -> B -> bool) (l : list A) (m : list B) :
  existsb (fun a => existsb (fun b => f a b) m) l = existsb (fun b => existsb (fun a => f a b) l) m.
Proof.
  induction l as [|a l IH]; cbn [existsb].
  - induction m as [|b m IHm]; cbn [existsb]; [reflexivity|]. rewrite <- IHm. reflexivity.
  - rewrite IH. clear IH. induction m as [|b m IHm]; cbn [existsb]; [reflexivity|].
    rewrite <- IHm. destruct (f a b), (existsb (fun b0 => f a b0) m),
      (existsb (fun a0 => f a0 b) l); reflexivity.
Qed.

Lemma existsb_ext' {A} (f g : A -> bool) l : (forall x, f x = g x) -> existsb f l = existsb g l.
Proof. intros H. induction l as [|x l IH]; cbn [existsb]; [reflexivity|]. rewrite H, IH. reflexivity. Qed.

(* searching o's segments with sa's box and testing for intersection = testing all of o's segments *)
Lemma search_exists (o : rng) (sa : seg) :
  existsb (fun si : seg * nat => intersects_segment sa (fst si)) (ring_search o (seg_rect sa))
  = existsb (fun sb => intersects_segment sa sb) (ring_segments o).
Proof.
  unfold ring_search.
  rewrite (existsb_filter_irrel (fun si : seg * nat => intersects_segment sa (fst si))).
  - apply (existsb_indexed (fun sb => intersects_segment sa sb)).
  - intros si Hk. destruct (intersects_segment sa (fst si)) eqn:E; [|reflexivity].
    apply intersects_segment_boxes in E. congruence.
Qed.

Definition lil_core (l o : rng) : bool :=
  existsb (fun sa => existsb (fun sb => intersects_segment sa sb) (ring_segments o)) (ring_segments l).

Lemma lil_core_sym l o : lil_core l o = lil_core o l.
Proof.
  unfold lil_core. rewrite existsb_swap. apply existsb_ext'. intros sb.
  apply existsb_ext'. intros sa. apply intersects_segment_sym.
Qed.

(* Line x Line without the shorter-first swap and without the box filters *)
Theorem line_intersects_line_eq (l o : rng) :
  line_intersects_line l o =
  negb (ring_empty l || ring_empty o) && rect_intersects_rect (ring_rect l) (ring_rect o) && lil_core l o.
Proof.
  unfold line_intersects_line.
  destruct (ring_empty l || ring_empty o); [reflexivity|]. cbn [negb andb].
  destruct (rect_intersects_rect (ring_rect l) (ring_rect o)); [|reflexivity]. cbn [negb andb].
  destruct (ring_npoints o <? ring_npoints l)%nat.
  - rewrite lil_core_sym. unfold lil_core. apply existsb_ext'. intros sa. apply search_exists.
  - unfold lil_core. apply existsb_ext'. intros sa. apply search_exists.
Qed.

(* C02 symmetry, line x line *)
Theorem line_intersects_line_sym (l o : rng) : line_intersects_line l o = line_intersects_line o l.
Proof.
  rewrite !line_intersects_line_eq, (rect_intersects_rect_sym (ring_rect l)), (lil_core_sym l o),
    (orb_comm (ring_empty l)). reflexivity.
Qed.

Lemma bbox_inbox (ps : list pt) (p : pt) : In p ps -> inbox (bbox_spec ps) p.
Proof. apply bbox_spec_tight. Qed.

Lemma bbox_wf (ps : list pt) : ps <> [] -> rect_wf (bbox_spec ps).
Proof.
  intros H. destruct ps as [|p l]; [congruence|].
  pose proof (bbox_inbox (p :: l) p (or_introl eq_refl)). rect_lia.
Qed.

Lemma seg_rect_in_bbox (ps : list pt) (a b : pt) :
  In a ps -> In b ps -> rect_contains_rect (bbox_spec ps) (seg_rect (a, b)) = true.
Proof.
  intros Ha Hb. pose proof (bbox_inbox ps a Ha) as A. pose proof (bbox_inbox ps b Hb) as B.
  unfold seg_rect. rect_lia.
Qed.

Lemma rects_meet_mono (r r' o o' : rect) :
  rect_contains_rect r r' = true -> rect_contains_rect o o' = true ->
  rect_intersects_rect r' o' = true -> rect_intersects_rect r o = true.
Proof. rewrite !rcr_iff, !rir_iff. lia. Qed.

(* Line x Line, full statement: true exactly when both lines have a segment
   and some segment of one meets some segment of the other (closed segments
   sharing a rational point, by IntersectsQ.seg_meet_iff_common_point) *)
Theorem line_intersects_line_spec (ps qs : list pt) :
  line_intersects_line (Lr ps) (Lr qs) = true <->
  (2 <= length ps)%nat /\ (2 <= length qs)%nat /\
  exists sa sb, In sa (path_segs ps) /\ In sb (path_segs qs) /\ seg_meet sa sb.
Proof.
  rewrite line_intersects_line_eq, !Lr_empty. unfold lil_core. rewrite !Lr_segs.
  rewrite !andb_true_iff, negb_true_iff, orb_false_iff, !Nat.ltb_ge. split.
  - intros [[[H1 H2] _] H3]. split; [exact H1|split; [exact H2|]].
    apply existsb_exists in H3. destruct H3 as (sa & Ia & H3).
    apply existsb_exists in H3. destruct H3 as (sb & Ib & H3).
    exists sa, sb. split; [exact Ia|split; [exact Ib|]]. apply intersects_segment_iff. exact H3.
  - intros (H1 & H2 & sa & sb & Ia & Ib & Hm). apply intersects_segment_iff in Hm.
    split; [split; [split; assumption|]|].
    + rewrite (Lr_rect ps H1), (Lr_rect qs H2). destruct sa as [a b], sb as [c d].
      destruct (path_segs_endpoints _ _ _ Ia) as [Aa Ab]. destruct (path_segs_endpoints _ _ _ Ib) as [Bc Bd].
      apply (rects_meet_mono _ (seg_rect (a, b)) _ (seg_rect (c, d))).
      * apply seg_rect_in_bbox; assumption.
      * apply seg_rect_in_bbox; assumption.
      * rewrite rect_intersects_rect_sym. apply intersects_segment_boxes. exact Hm.
    + apply existsb_exists. exists sa. split; [exact Ia|].
      apply existsb_exists. exists sb. split; [exact Ib|exact Hm].
Qed.

Lemma in_rectb_inbox (r : rect) (p : pt) : in_rectb r p = true <-> inbox r p.
Proof. rewrite <- rect_contains_point_spec. apply rect_contains_point_inbox. Qed.

Lemma on_seg_in_rect (q : rect) (a b p : pt) :
  in_rectb q a = true -> in_rectb q b = true -> on_seg (a, b) p -> in_rectb q p = true.
Proof. rewrite !in_rectb_inbox, <- on_segb_iff. apply on_segb_inbox. Qed.

Lemma bbox_in_rect (R : rect) (ps : list pt) : ps <> [] ->
  (rect_contains_rect R (bbox_spec ps) = true <-> forall p, In p ps -> inbox R p).
Proof.
  intros Hne. split.
  - intros H p Hp. pose proof (bbox_inbox ps p Hp). rect_lia.
  - intros H. destruct (bbox_spec_attained ps Hne) as (p1 & p2 & p3 & p4 & I1 & I2 & I3 & I4 & E1 & E2 & E3 & E4).
    cbv zeta in *.
    pose proof (H _ I1) as [Q1 _]. pose proof (H _ I2) as [_ Q2]. pose proof (H _ I3) as [Q3 _]. pose proof (H _ I4) as [_ Q4].
    rect_lia.
Qed.

Lemma bbox_in_rect_iff (q : rect) (ps : list pt) : ps <> [] ->
  (rect_contains_rect q (bbox_spec ps) = true <-> forall p, In p ps -> in_rectb q p = true).
Proof. intros Hne. rewrite (bbox_in_rect q ps Hne). split; intros H p Hp; apply in_rectb_inbox, H, Hp. Qed.

(* Rect contains Line: true exactly when the line has a segment and all its vertices are in the box *)
Theorem rect_contains_line_spec (q : rect) (ps : list pt) :
  rect_contains_line q (Lr ps) = true <->
  (2 <= length ps)%nat /\ forall p, In p ps -> in_rectb q p = true.
Proof.
  unfold rect_contains_line. rewrite andb_true_iff, negb_true_iff, Lr_empty, Nat.ltb_ge.
  apply and_iff_hyp. intros H. rewrite (Lr_rect ps H). apply bbox_in_rect_iff, (length_nonnil ps 1 H).
Qed.

(* ... and then every point of every segment of the line is in the box *)
Corollary rect_contains_line_points (q : rect) (ps : list pt) (s : seg) (p : pt) :
  rect_contains_line q (Lr ps) = true -> In s (path_segs ps) -> on_seg s p -> in_rectb q p = true.
Proof.
  intros H Hs Hp. apply rect_contains_line_spec in H. destruct H as [_ H]. destruct s as [a b].
  destruct (path_segs_endpoints _ _ _ Hs) as [Ia Ib].
  apply (on_seg_in_rect q a b p); auto.
Qed.

(* Rect contains Poly: the exterior ring's vertices are all in the box (holes lie inside the exterior) *)
Theorem rect_contains_poly_spec (q : rect) (e : list pt) (hs : list (list pt)) :
  rect_contains_poly q (Pg e hs) = true <->
  (3 <= length e)%nat /\ forall p, In p e -> in_rectb q p = true.
Proof.
  unfold rect_contains_poly. rewrite andb_true_iff, negb_true_iff, Pg_empty, Nat.ltb_ge.
  apply and_iff_hyp. intros H. rewrite (Pg_rect e hs H). apply bbox_in_rect_iff, (length_nonnil e 2 H).
Qed.

Lemma rect_eqb_eq r o : rect_eqb r o = true <-> r = o.
Proof.
  unfold rect_eqb. rewrite andb_true_iff, !pt_eqb_eq. destruct r, o; cbn [fst snd].
  split; [intros [-> ->]; reflexivity|intros H; inversion H; auto].
Qed.

Lemma bbox_point_iff (ps : list pt) (p : pt) : ps <> [] ->
  (bbox_spec ps = (p, p) <-> forall v, In v ps -> v = p).
Proof.
  intros Hne. split.
  - intros E v Hv. pose proof (bbox_spec_tight ps v Hv) as T. cbv zeta in T. rewrite E in T. cbn [fst snd] in T.
    destruct v, p. unfold px, py in T. cbn [fst snd] in T. f_equal; lia.
  - intros H. destruct (bbox_spec_attained ps Hne) as (p1 & p2 & p3 & p4 & I1 & I2 & I3 & I4 & E1 & E2 & E3 & E4).
    cbv zeta in *. rewrite (H _ I1) in E1. rewrite (H _ I2) in E2. rewrite (H _ I3) in E3. rewrite (H _ I4) in E4.
    destruct (bbox_spec ps) as [[a b] [c d]]. destruct p as [x y]. unfold px, py in *. cbn [fst snd] in *. subst. reflexivity.
Qed.

Theorem point_contains_rect_spec (p : pt) (q : rect) : point_contains_rect p q = true <-> q = (p, p).
Proof. unfold point_contains_rect, point_rect. rewrite rect_eqb_eq. split; congruence. Qed.

Theorem point_contains_line_spec (p : pt) (ps : list pt) :
  point_contains_line p (Lr ps) = true <-> (2 <= length ps)%nat /\ forall v, In v ps -> v = p.
Proof.
  unfold point_contains_line, point_rect. rewrite andb_true_iff, negb_true_iff, Lr_empty, Nat.ltb_ge, rect_eqb_eq.
  apply and_iff_hyp. intros H. rewrite (Lr_rect ps H). apply bbox_point_iff, (length_nonnil ps 1 H).
Qed.

Theorem point_contains_poly_spec (p : pt) (e : list pt) (hs : list (list pt)) :
  point_contains_poly p (Pg e hs) = true <-> (3 <= length e)%nat /\ forall v, In v e -> v = p.
Proof.
  unfold point_contains_poly, point_rect. rewrite andb_true_iff, negb_true_iff, Pg_empty, Nat.ltb_ge, rect_eqb_eq.
  apply and_iff_hyp. intros H. rewrite (Pg_rect e hs H). apply bbox_point_iff, (length_nonnil e 2 H).
Qed.

Theorem rcs_endpoints_in (r : rng) (sg : seg) (allow : bool) :
  rcs r sg allow = true -> rcp_hit r (fst sg) allow = true /\ rcp_hit r (snd sg) allow = true.
Proof.
  unfold rcs, ring_contains_segment, rcp_hit. destruct sg as [a b]. cbn [fst snd].
  destruct (negb (rect_contains_point (ring_rect r) a) || negb (rect_contains_point (ring_rect r) b)); [discriminate|].
  destruct (fst (ring_contains_point r a allow)) eqn:Ea; cbn [negb]; [|discriminate].
  destruct (pt_eqb b a) eqn:Eb.
  - apply pt_eqb_eq in Eb. subst b. intros _. split; [reflexivity|exact Ea].
  - destruct (fst (ring_contains_point r b allow)) eqn:Eb'; cbn [negb]; [|discriminate]. auto.
Qed.

Theorem rcr_core_rect (r o : rng) (allow : bool) :
  rcr_core r o allow = true -> rect_contains_rect (ring_rect r) (ring_rect o) = true.
Proof.
  unfold rcr_core. destruct (ring_empty r || ring_empty o); [discriminate|].
  destruct (rect_contains_rect (ring_rect r) (ring_rect o)); [reflexivity|discriminate].
Qed.

(* a ring that contains another (non-shortcut path) contains all of its segments' endpoints *)
Theorem rcr_core_vertices (r o : rng) (allow : bool) (sg : seg) :
  rcr_core r o allow = true -> ring_convex r = false -> In sg (ring_segments o) ->
  rcp_hit r (fst sg) allow = true /\ rcp_hit r (snd sg) allow = true.
Proof.
  unfold rcr_core. destruct (ring_empty r || ring_empty o); [discriminate|].
  destruct (rect_contains_rect (ring_rect r) (ring_rect o)); cbn [negb]; [|discriminate].
  intros H Hc Hin. rewrite Hc in H. rewrite forallb_forall in H. apply rcs_endpoints_in. apply H. exact Hin.
Qed.

Print Assumptions line_intersects_line_spec.
Print Assumptions rect_contains_poly_spec.
