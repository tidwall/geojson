(* ObjSelf3.v — property C09 at the object level: a non-empty object contains itself, through
   Features, collections and nesting (every non-empty part of the object is contained by the child
   it comes from; at the leaves the geometry-level fact of ObjSelf2.v). *)
From Coq Require Import ZArith List.
From GJ Require Import Pairs Obj ObjProofs BoxLaws ContainsBoxes ObjSym ObjSelf2.
Import ListNotations.
Open Scope Z_scope.

Lemma leaf_self (o : obj) (g : gshape) : leaf_geom o = Some g -> (forall x, In x (sleaves o) -> self_ok x) ->
  o_empty o = false -> o_contains o o = true.
Proof.
  intros E Hok Hne. rewrite (leaf_contains o o g g E E). destruct (leaf_sleaves o g E) as (s & -> & Hs & He).
  unfold gcb. rewrite (g_contains_self s); [reflexivity|apply Hok; rewrite Hs; left; reflexivity|]. rewrite <- He. exact Hne.
Qed.

Lemma parts_atomic (a : obj) : forall p, In p (for_each_part a) -> ends_in_coll p = false.
Proof.
  induction a as [o g E|b IH|k cs IH] using obj_leaf_ind; intros p Hp.
  - destruct (leaf_parts o g E) as (_ & Hfp & Hec). rewrite Hfp in Hp. destruct Hp as [<-|[]]. exact Hec.
  - cbn [for_each_part] in Hp. destruct (ends_in_coll b) eqn:Eb; [apply IH; exact Hp|]. destruct Hp as [<-|[]]. exact Eb.
  - cbn [for_each_part] in Hp. apply in_flat_map in Hp. destruct Hp as (c & Hc & Hp). rewrite Forall_forall in IH. apply (IH c Hc p Hp).
Qed.

Lemma nonempty_part_iff (a : obj) : o_empty a = false <-> exists p, In p (for_each_part a) /\ o_empty p = false.
Proof. rewrite o_empty_parts. apply forallb_false. Qed.

Lemma feature_argument_contains_coll (a b : obj) : ends_in_coll b = true -> o_contains a (OFeature b) = o_contains a b.
Proof.
  intros Hb. induction a as [o g E|a IH|k cs IH] using obj_leaf_ind.
  - rewrite !(leaf_o_contains o g _ E). reflexivity.
  - exact IH.
  - cbn [o_contains]. unfold nonempty_parts_c. cbn [for_each_part]. rewrite Hb. reflexivity.
Qed.

Lemma feature_argument_contains_any (a b : obj) : o_contains a (OFeature b) = o_contains a b.
Proof. destruct (ends_in_coll b) eqn:E; [apply feature_argument_contains_coll|apply feature_argument_contains]; exact E. Qed.

(* every non-empty part of an object is contained by the object *)
Lemma own_part (a : obj) : obj_wf a -> (forall x, In x (sleaves a) -> self_ok x) ->
  forall p, In p (for_each_part a) -> o_empty p = false -> o_contains a p = true.
Proof.
  induction a as [o g E|b IH|k cs IH] using obj_leaf_ind; intros Hw Hok p Hp Hne.
  - destruct (leaf_parts o g E) as (_ & Hfp & _). rewrite Hfp in Hp. destruct Hp as [<-|[]].
    apply (leaf_self o g E Hok Hne).
  - cbn [for_each_part obj_wf sleaves o_contains] in *. destruct (ends_in_coll b) eqn:E.
    + apply IH; assumption.
    + destruct Hp as [<-|[]]. rewrite feature_argument_contains_any. cbn [o_empty] in Hne.
      apply IH; try assumption. rewrite (proj1 (atomic_parts b E)). left. reflexivity.
  - cbn [for_each_part] in Hp. apply in_flat_map in Hp. destruct Hp as (c & Hc & Hp).
    pose proof (obj_wf_child k cs c Hw Hc) as Hwc. rewrite Forall_forall in IH.
    destruct (part_c_rect_in_obj c p Hwc Hp Hne) as [_ Hwp].
    apply (coll_contains_iff k cs p Hw Hwp).
    assert (Ec : o_empty c = false) by (apply nonempty_part_iff; exists p; split; assumption).
    assert (Hparts : nonempty_parts_c p = [p]).
    { unfold nonempty_parts_c. rewrite (proj1 (atomic_parts p (parts_atomic c p Hp))). cbn [filter]. rewrite Hne. reflexivity. }
    rewrite Hparts. split; [|split; [discriminate|]].
    + apply forallb_false. exists c. split; assumption.
    + intros q [<-|[]]. exists c. split; [exact Hc|]. split; [exact Ec|]. apply (IH c Hc Hwc); try assumption.
      intros x Hx. apply Hok. cbn [sleaves]. apply in_flat_map. exists c. split; assumption.
Qed.

Theorem o_contains_self (a : obj) : obj_wf a -> (forall x, In x (sleaves a) -> self_ok x) ->
  o_empty a = false -> o_contains a a = true.
Proof.
  induction a as [o g E|b IH|k cs IH] using obj_leaf_ind; intros Hw Hok Hne.
  - apply (leaf_self o g E Hok Hne).
  - cbn [o_contains]. rewrite feature_argument_contains_any. apply IH; assumption.
  - apply (coll_contains_iff k cs (OColl k cs) Hw Hw). split; [exact Hne|]. split.
    + destruct (proj1 (nonempty_part_iff (OColl k cs)) Hne) as (p & Hp & Ep). intros E.
      assert (Hin : In p (nonempty_parts_c (OColl k cs))) by (apply in_nonempty; split; assumption).
      rewrite E in Hin. destruct Hin.
    + intros p Hp. apply in_nonempty in Hp. destruct Hp as [Hp Ep].
      cbn [for_each_part] in Hp. apply in_flat_map in Hp. destruct Hp as (c & Hc & Hp).
      exists c. split; [exact Hc|]. split; [apply nonempty_part_iff; exists p; split; assumption|].
      apply (own_part c (obj_wf_child k cs c Hw Hc)); try assumption.
      intros x Hx. apply Hok. cbn [sleaves]. apply in_flat_map. exists c. split; assumption.
Qed.

Print Assumptions o_contains_self.

(* not vacuous: a FeatureCollection holding a concave polygon with a hole, an empty line string, a
   Feature of a collection and a flat rectangle contains itself *)
Definition self_a : obj :=
  OColl 4 [OFeature (OPoly [[(0,0);(8,0);(8,8);(4,4);(0,8);(0,0)]; [(1,1);(3,1);(2,3);(1,1)]]); OLine [];
           OFeature (OColl 3 [OLine [(10,0);(14,0);(14,5)]; OSimple (5,1)]); ORect ((11,0),(13,0))].
Example self_objects : o_empty self_a = false /\ o_contains self_a self_a = true.
Proof. vm_compute. split; reflexivity. Qed.
