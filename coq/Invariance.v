(* Invariance.v — property C12: answers are invariant under translation and
   positive scaling.  Proved here for the segment kernels (raycast, segment
   intersection, collinearity) and for point membership in rings, polygons,
   rectangles and lines; AffinePairs.v has every pair predicate of the model.
   The map is p |-> (k*x+dx, k*y+dy), k > 0. *)
From GJ Require Import Base Kernel KernelSpec KernelProofs IntersectsProofs Series SeriesSpec Ring RingSpec
  PipProofs.
Open Scope Z_scope.

Section Affine.
Variables k dx dy : Z.
Hypothesis kpos : 0 < k.

Definition aff (p : pt) : pt := (k * px p + dx, k * py p + dy).
Definition affs (s : seg) : seg := (aff (fst s), aff (snd s)).

Lemma aff_px p : px (aff p) = k * px p + dx. Proof. reflexivity. Qed.
Lemma aff_py p : py (aff p) = k * py p + dy. Proof. reflexivity. Qed.

Lemma cross_aff a b p : cross (aff a) (aff b) (aff p) = k * k * cross a b p.
Proof. unfold cross. rewrite !aff_px, !aff_py. ring. Qed.

Lemma aff_inj p q : aff p = aff q -> p = q.
Proof.
  destruct p as [a b], q as [c d]. unfold aff, px, py. cbn [fst snd]. intros H. inversion H.
  f_equal; nia.
Qed.

Lemma pt_eqb_aff p q : pt_eqb (aff p) (aff q) = pt_eqb p q.
Proof. apply pt_eqb_inj, aff_inj. Qed.

(* x |-> k*x + d is strictly increasing, and multiplying by k*k keeps the sign *)
Lemma aff_leb a b d : (k * a + d <=? k * b + d) = (a <=? b).
Proof. apply Bool.eq_true_iff_eq. rewrite !Z.leb_le. nia. Qed.

Lemma aff_ltb a b d : (k * a + d <? k * b + d) = (a <? b).
Proof. apply Bool.eq_true_iff_eq. rewrite !Z.ltb_lt. nia. Qed.

Lemma aff_eqb a b d : (k * a + d =? k * b + d) = (a =? b).
Proof. apply Bool.eq_true_iff_eq. rewrite !Z.eqb_eq. nia. Qed.

Lemma aff_min a b d : Z.min (k * a + d) (k * b + d) = k * Z.min a b + d.
Proof. destruct (Z.le_ge_cases a b); [rewrite !Z.min_l | rewrite !Z.min_r]; nia. Qed.

Lemma aff_max a b d : Z.max (k * a + d) (k * b + d) = k * Z.max a b + d.
Proof. destruct (Z.le_ge_cases a b); [rewrite !Z.max_r | rewrite !Z.max_l]; nia. Qed.

Lemma sq_pos : 0 < k * k. Proof. nia. Qed.

Lemma sq_pos_ltb z : (0 <? k * k * z) = (0 <? z).
Proof. pose proof sq_pos. apply Bool.eq_true_iff_eq. rewrite !Z.ltb_lt. nia. Qed.

Lemma sq_neg_ltb z : (k * k * z <? 0) = (z <? 0).
Proof. pose proof sq_pos. apply Bool.eq_true_iff_eq. rewrite !Z.ltb_lt. nia. Qed.

Lemma sq_eqb z : (k * k * z =? 0) = (z =? 0).
Proof. pose proof sq_pos. apply Bool.eq_true_iff_eq. rewrite !Z.eqb_eq. nia. Qed.

Lemma on_segb_aff s p : on_segb (affs s) (aff p) = on_segb s p.
Proof.
  destruct s as [a b]. unfold affs, on_segb. cbn [fst snd].
  rewrite cross_aff, !aff_px, !aff_py, !aff_min, !aff_max, !aff_leb, sq_eqb. reflexivity.
Qed.

Lemma crossesb_aff s p : crossesb (affs s) (aff p) = crossesb s p.
Proof.
  destruct s as [a b]. unfold affs, crossesb. cbn [fst snd].
  rewrite cross_aff, !aff_py, !aff_leb, !aff_ltb, sq_pos_ltb, sq_neg_ltb. reflexivity.
Qed.

Theorem raycast_aff s p : raycast (affs s) (aff p) = raycast s p.
Proof. rewrite !raycast_eq_spec, crossesb_aff, on_segb_aff. reflexivity. Qed.

Theorem intersects_segment_aff s o : intersects_segment (affs s) (affs o) = intersects_segment s o.
Proof.
  apply Bool.eq_true_iff_eq. rewrite !intersects_segment_iff, <- !seg_meetb_iff.
  destruct s as [a b], o as [c d]. unfold affs, seg_meetb. cbn [fst snd].
  change (aff a, aff b) with (affs (a, b)). change (aff c, aff d) with (affs (c, d)).
  rewrite !on_segb_aff, !cross_aff, !sq_pos_ltb, !sq_neg_ltb. reflexivity.
Qed.

Theorem collinear_point_aff s p : collinear_point (affs s) (aff p) = collinear_point s p.
Proof.
  apply Bool.eq_true_iff_eq. rewrite !collinear_point_iff, <- !Z.eqb_eq.
  destruct s as [a b]. unfold affs. cbn [fst snd]. rewrite cross_aff, sq_eqb. reflexivity.
Qed.

Lemma path_segs_aff ps : path_segs (map aff ps) = map affs (path_segs ps).
Proof. exact (path_segs_map aff ps). Qed.

Lemma ring_edges_aff ps : ring_edges (map aff ps) = map affs (ring_edges ps).
Proof. exact (ring_edges_map aff pt_eqb_aff ps). Qed.

Lemma on_boundaryb_aff sgs p : on_boundaryb (map affs sgs) (aff p) = on_boundaryb sgs p.
Proof. exact (on_boundaryb_map aff sgs p (fun s => on_segb_aff s p)). Qed.

Lemma parityb_aff sgs p : parityb (map affs sgs) (aff p) = parityb sgs p.
Proof. exact (parityb_map aff sgs p (fun s => crossesb_aff s p)). Qed.

(* ringContainsPoint: a translated / scaled ring answers the translated / scaled point alike *)
Theorem ring_contains_point_aff ps p allow :
  rcp_hit (RS {| closed := true; pts := map aff ps |}) (aff p) allow
  = rcp_hit (RS {| closed := true; pts := ps |}) p allow.
Proof.
  rewrite !ring_contains_point_spec, ring_edges_aff, on_boundaryb_aff, parityb_aff. reflexivity.
Qed.

(* Poly.ContainsPoint (= IntersectsPoint, and Point.Within/Intersects polygon) *)
Theorem poly_contains_point_aff e hs p :
  poly_contains_point {| exterior := RS {| closed := true; pts := map aff e |};
                         holes := map (fun h => RS {| closed := true; pts := h |}) (map (map aff) hs) |} (aff p)
  = poly_contains_point {| exterior := RS {| closed := true; pts := e |};
                           holes := map (fun h => RS {| closed := true; pts := h |}) hs |} p.
Proof.
  rewrite !poly_contains_point_spec. apply (in_polyb_rings (map aff)); [|intros h _];
    unfold in_ringb, strictly_in_ringb; rewrite ring_edges_aff, on_boundaryb_aff, parityb_aff; reflexivity.
Qed.

Theorem line_contains_point_aff ps p :
  line_contains_point {| closed := false; pts := map aff ps |} (aff p)
  = line_contains_point {| closed := false; pts := ps |} p.
Proof.
  rewrite !line_contains_point_spec. unfold in_lineb. rewrite path_segs_aff. apply on_boundaryb_aff.
Qed.

Theorem rect_contains_point_aff (r : rect) p :
  rect_contains_point (aff (fst r), aff (snd r)) (aff p) = rect_contains_point r p.
Proof.
  destruct r as [mn mx]. unfold rect_contains_point. cbn [fst snd].
  rewrite !aff_px, !aff_py, !aff_leb. reflexivity.
Qed.

End Affine.

Print Assumptions raycast_aff.
Print Assumptions intersects_segment_aff.
Print Assumptions poly_contains_point_aff.
