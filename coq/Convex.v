(* Convex.v — property C03, convex rings: for a ring all of whose vertices lie weakly on one side of
   every edge line (sigma = 1: counter-clockwise, interior on the left; sigma = -1: clockwise) and
   without zero-length edges, a point that is strictly inside (odd crossing parity, off the
   boundary) is strictly on the inner side of every edge; hence a segment with both ends strictly
   inside has every rational point strictly inside — the convex shortcut of ringContainsSegment
   (decision site 5) is exact for strict containment on such rings. *)
From GJ Require Import Base KernelSpec Series Ring RingSpec KernelProofs IntersectsProofs
  IntersectsQ Invariance Jordan JordanQ MirrorY.
Import ListNotations.
Open Scope Z_scope.

Definition hpc (sigma : Z) (ps : list pt) : Prop :=
  forall a b c d, In (a, b) (ring_edges ps) -> In (c, d) (ring_edges ps) ->
    0 <= sigma * cross a b c /\ 0 <= sigma * cross a b d.

Definition no_zero_edges (ps : list pt) : Prop := forall a b, In (a, b) (ring_edges ps) -> a <> b.

(* x is a weighted mean of c, d >= 0 and of p <= 0, h < 0: the second weighting puts nothing on h *)
Lemma mean_squeeze e m e' m' x c d p h :
  0 < e -> 0 <= m <= e -> 0 < e' -> 0 <= m' <= e' ->
  e * x = (e - m) * c + m * d -> e' * x = (e' - m') * p + m' * h ->
  0 <= c -> 0 <= d -> p <= 0 -> h < 0 -> m' = 0.
Proof. intros. assert (0 <= x) by nia. nia. Qed.

(* a weighted mean of two numbers of the sign of s has that sign *)
Lemma mean_same_sign s d n x u v :
  0 < d -> 0 <= n <= d -> d * x = (d - n) * u + n * v -> 0 < s * u -> 0 < s * v -> 0 < s * x.
Proof.
  intros Hd Hn E Hu Hv.
  assert (E' : d * (s * x) = (d - n) * (s * u) + n * (s * v)) by (rewrite Z.mul_shuffle3, E; ring).
  nia.
Qed.

(* on the outer side of an edge line (or on it), off the boundary: outside *)
Lemma outer_side_outside (sigma : Z) (ps : list pt) (a b p : pt) :
  (sigma = 1 \/ sigma = -1) -> hpc sigma ps -> In (a, b) (ring_edges ps) -> a <> b ->
  sigma * cross a b p <= 0 -> on_boundaryb (ring_edges ps) p = false ->
  parityb (ring_edges ps) p = false.
Proof.
  intros Hs Hc Hab Hne Hout Hoff.
  set (nx := sigma * (py b - py a)). set (ny := - sigma * (px b - px a)).
  assert (Hn : nx <> 0 \/ ny <> 0).
  { destruct (Z.eq_dec (py b) (py a)) as [Ey|Ny].
    - right. unfold ny. assert (px b <> px a) by (intros Ex; apply Hne; apply pt_eq_coords; lia). nia.
    - left. unfold nx. nia. }
  destruct (spread_spec ps p) as [Sp _]. set (t := spread ps p) in *.
  destruct (far_point_outside ps p nx ny t Hn (Z.le_refl t)) as [BH PH]. cbv zeta in BH, PH.
  set (H := (px p + t * nx, py p + t * ny)) in *.
  rewrite <- PH. apply parity_constant_off_boundary.
  intros [c d] Hcd Hm.
  destruct (Hc a b c d Hab Hcd) as [Cc Cd].
  destruct (seg_meet_common_scaled c d p H Hm) as (k & Q & Hk & On1 & On2).
  destruct (cross_along (sc k a) (sc k b) _ _ Q On1) as (m & e & He & Hme & A1).
  destruct (on_seg_param (sc k p) (sc k H) Q On2) as (m' & e' & He' & Hme' & Gx & Gy).
  pose proof (cross_param (sc k a) (sc k b) (sc k p) (sc k H) Q m' e' Gx Gy) as A2.
  unfold sc in A1, A2. rewrite !(cross_aff k 0 0) in A1, A2.
  pose proof (sqdist_pos a b Hne) as Len.
  assert (CH : sigma * cross a b H < 0).
  { replace (cross a b H) with (cross a b p - sigma * t * ((px b - px a) * (px b - px a) + (py b - py a) * (py b - py a)))
      by (unfold cross, H, nx, ny, px, py; cbn [fst snd]; ring).
    clear - Hs Hout Sp Len. destruct Hs as [-> | ->]; nia. }
  (* sigma * cross a b Q is >= 0 seen from the edge and <= 0 seen from the segment, < 0 unless Q is its start *)
  assert (K : 0 < k * k) by (apply Z.mul_pos_pos; exact Hk).
  assert (Mz : m' = 0).
  { apply (mean_squeeze e m e' m' (sigma * cross (aff k 0 0 a) (aff k 0 0 b) Q)
             (k * k * (sigma * cross a b c)) (k * k * (sigma * cross a b d))
             (k * k * (sigma * cross a b p)) (k * k * (sigma * cross a b H))); try assumption.
    - destruct Hs as [-> | ->]; lia.
    - destruct Hs as [-> | ->]; lia.
    - apply Z.mul_nonneg_nonneg; lia.
    - apply Z.mul_nonneg_nonneg; lia.
    - apply Z.mul_nonneg_nonpos; lia.
    - apply Z.mul_pos_neg; lia. }
  (* Q is the scaled p, which would lie on the edge *)
  assert (Q = sc k p).
  { rewrite Mz in Gx, Gy. apply pt_eq_coords; [apply Z.mul_reg_l with e'|apply Z.mul_reg_l with e']; lia. }
  subst Q. apply on_segb_iff in On1. change (sc k c, sc k d) with (affs k 0 0 (c, d)) in On1. unfold sc in On1.
  rewrite (on_segb_aff k 0 0 Hk) in On1. apply on_segb_iff in On1.
  rewrite (on_boundary_edge _ p (c, d) Hcd On1) in Hoff. discriminate Hoff.
Qed.

(* strictly inside => strictly on the inner side of every edge *)
Theorem strictly_inside_inner_side (sigma : Z) (ps : list pt) (p : pt) :
  (sigma = 1 \/ sigma = -1) -> hpc sigma ps -> no_zero_edges ps ->
  strictly_in_ringb (ring_edges ps) p = true ->
  forall a b, In (a, b) (ring_edges ps) -> 0 < sigma * cross a b p.
Proof.
  intros Hs Hc Hz Hin a b Hab. apply strictly_in_ringb_true_iff in Hin. destruct Hin as [Hoff Hpar].
  destruct (Z_lt_dec 0 (sigma * cross a b p)) as [?|N]; [assumption|exfalso].
  assert (parityb (ring_edges ps) p = false); [|congruence].
  apply (outer_side_outside sigma ps a b p Hs Hc Hab (Hz a b Hab)); [lia|exact Hoff].
Qed.

Theorem convex_segment_strictly_inside (sigma : Z) (ps : list pt) (A B : pt) :
  (sigma = 1 \/ sigma = -1) -> hpc sigma ps -> no_zero_edges ps ->
  strictly_in_ringb (ring_edges ps) A = true -> strictly_in_ringb (ring_edges ps) B = true ->
  all_strictly_inside ps A B.
Proof.
  intros Hs Hc Hz SA SB. apply strict_nomeet_all_inside; [exact SA|].
  intros [c d] Hcd Em.
  pose proof (strictly_inside_inner_side sigma ps A Hs Hc Hz SA c d Hcd) as IA.
  pose proof (strictly_inside_inner_side sigma ps B Hs Hc Hz SB c d Hcd) as IB.
  (* the common point is on the line c d, and strictly on the side of A and B *)
  destruct (seg_meet_common_scaled c d A B Em) as (k & Q & Hk & (C0 & _) & On2).
  destruct (cross_along (sc k c) (sc k d) _ _ Q On2) as (m & e & He & Hme & A2).
  unfold sc in A2, C0. rewrite !(cross_aff k 0 0) in A2.
  assert (Hkk : 0 < k * k) by (apply Z.mul_pos_pos; exact Hk).
  pose proof (mean_same_sign sigma e m _ _ _ He Hme A2) as S. rewrite C0 in S.
  rewrite !(Z.mul_shuffle3 sigma) in S. specialize (S (Z.mul_pos_pos _ _ Hkk IA) (Z.mul_pos_pos _ _ Hkk IB)). lia.
Qed.

(* the code: on a ring flagged convex, strict containment of a segment is decided by its two ends *)
Theorem ring_contains_segment_convex_flag (ps : list pt) (A B : pt) :
  ring_convex (RS {| closed := true; pts := ps |}) = true ->
  rcs (RS {| closed := true; pts := ps |}) (A, B) false =
  strictly_in_ringb (ring_edges ps) A && strictly_in_ringb (ring_edges ps) B.
Proof.
  intros Hcv. rewrite rcs_strict_unfold, Hcv. apply andb_true_r.
Qed.

Corollary ring_contains_segment_convex_pointset (sigma : Z) (ps : list pt) (A B : pt) :
  (sigma = 1 \/ sigma = -1) -> hpc sigma ps -> no_zero_edges ps ->
  ring_convex (RS {| closed := true; pts := ps |}) = true ->
  (rcs (RS {| closed := true; pts := ps |}) (A, B) false = true <-> all_strictly_inside ps A B).
Proof.
  intros Hs Hc Hz Hcv. rewrite (ring_contains_segment_convex_flag ps A B Hcv), andb_true_iff. split.
  - intros [SA SB]. apply (convex_segment_strictly_inside sigma); assumption.
  - apply all_strictly_inside_ends.
Qed.

Print Assumptions convex_segment_strictly_inside.
Print Assumptions ring_contains_segment_convex_pointset.
