(* CoversBoxes.v — property C09: if A contains a non-empty B then A's rectangle
   covers B's.  Geometry level (all sixteen pairs; for Line.ContainsLine the
   accepting step of the walk puts the far end of the covered segment between two
   points of receiver segments, hence inside the receiver's rectangle) and object
   level (Features, collections, nested). *)
From GJ Require Import Base Kernel KernelSpec RaycastProofs KernelProofs SeriesSpec
     Ring PipProofs PairSpec PairProofs Pairs LineProofs Obj ObjSpec ObjProofs BoxLaws.
Open Scope Z_scope.

(* the far end b of the covered segment lies in R when a pass reaches it: it is between cur and the new
   point, and a rectangle is convex *)
Lemma reach_in_box (R : rect) (a b cur e : pt) :
  pt_eqb a b = false -> cross a b cur = 0 -> cross a b e = 0 -> inbox R cur -> inbox R e ->
  dotp a b cur <= dotp a b b <= dotp a b e -> inbox R b.
Proof.
  intros Hab Hcc Hce Hcur He Hd. apply (on_segb_inbox R cur e b Hcur He), on_segb_iff.
  apply (between_on_seg a b cur e b (pt_eqb_neq a b Hab) Hcc Hce); [unfold cross; lia|exact Hd].
Qed.

Lemma covers_walk_true_end (R : rect) (l : rng) (a b : pt) :
  (forall s, In s (ring_segments l) -> inbox R (fst s) /\ inbox R (snd s)) -> pt_eqb a b = false ->
  forall fuel cur curd, cross a b cur = 0 -> curd = dotp a b cur -> curd < dotp a b b ->
  covers_walk fuel l (a, b) cur curd = Some true -> inbox R b.
Proof.
  intros HR Hab. induction fuel as [|f IH]; intros cur curd Hcc Hcd Hlt H; [discriminate|].
  destruct (covers_walk_true f l a b cur curd Hlt H) as (r & Hsrc & Hprog & Hnext).
  destruct (src_line l a b cur curd r Hcd Hsrc Hprog) as ([s1 s2] & Hs & _ & _ & _ & Hon & Hend & Hd & Hce). cbn [fst snd] in *.
  destruct Hnext as [L|[L H']]; [|exact (IH (fst r) (snd r) Hce Hd L H')].
  (* cur lies on a receiver segment and the new point is an end of it: both are in R, and b lies between them *)
  destruct (HR _ Hs) as [B1 B2].
  apply (reach_in_box R a b cur (fst r) Hab Hcc Hce);
    [apply (on_segb_inbox R s1 s2 cur B1 B2), on_segb_iff, Hon|destruct Hend as [-> | ->]; assumption|lia].
Qed.

(* a line that covers a segment touches the segment's first point *)
Lemma line_covers_true_touch (l : rng) (sg : seg) :
  line_covers_segment l sg = Some true -> exists s, In s (ring_segments l) /\ raycast_on s (fst sg) = true.
Proof.
  destruct sg as [a b]. cbn [fst]. destruct (pt_eqb a b) eqn:E.
  - apply pt_eqb_eq in E. subst b. intros H. apply covers_point_true in H. destruct H as (s & Hs & Hon).
    exists s. split; [exact Hs|apply raycast_on_iff, Hon].
  - rewrite (covers_first_pass l a b E). intros H.
    destruct (covers_walk_true _ l a b a 0 (dot_pos a b E) H) as (r & (s & Hs & _ & _ & Ron & _) & _). exists s. split; assumption.
Qed.

(* an accepted segment has both ends in every rectangle that holds the ends of the receiver's segments *)
Lemma line_covers_true_ends (R : rect) (l : rng) (sg : seg) :
  (forall s, In s (ring_segments l) -> inbox R (fst s) /\ inbox R (snd s)) ->
  line_covers_segment l sg = Some true -> inbox R (fst sg) /\ inbox R (snd sg).
Proof.
  intros HR H. destruct (line_covers_true_touch _ _ H) as ([s1 s2] & Hs & Hon). destruct (HR _ Hs) as [B1 B2].
  rewrite raycast_on_eq in Hon. pose proof (on_segb_inbox R s1 s2 _ B1 B2 Hon) as Ha.
  split; [exact Ha|]. destruct sg as [a b]. cbn [fst snd] in *. destruct (pt_eqb a b) eqn:E.
  - apply pt_eqb_eq in E. rewrite <- E. exact Ha.
  - rewrite (covers_first_pass _ a b E) in H.
    refine (covers_walk_true_end R l a b HR E _ a 0 _ _ (dot_pos a b E) H); [unfold cross; lia|unfold dotp; lia].
Qed.

Lemma line_contains_line_ends (R : rect) (l o : rng) (sg : seg) :
  (forall s, In s (ring_segments l) -> inbox R (fst s) /\ inbox R (snd s)) ->
  line_contains_line l o = Some true -> In sg (ring_segments o) -> inbox R (fst sg) /\ inbox R (snd sg).
Proof. intros HR H Hin. apply line_contains_line_true in H. apply (line_covers_true_ends R l sg HR), H, Hin. Qed.

(* the points of an open series with at least two points are ends of its segments *)
Lemma line_point_is_end (qs : list pt) (p : pt) : (2 <= length qs)%nat -> In p qs ->
  exists sg, In sg (path_segs qs) /\ (p = fst sg \/ p = snd sg).
Proof.
  revert p. induction qs as [|a [|b r] IH]; intros p Hlen Hin; cbn [length] in Hlen; try lia.
  destruct Hin as [<-|Hin].
  - exists (a, b). split; [left; reflexivity|left; reflexivity].
  - destruct r as [|c r'].
    + destruct Hin as [<-|[]]. exists (a, b). split; [left; reflexivity|right; reflexivity].
    + destruct (IH p ltac:(cbn [length]; lia) Hin) as (sg & Hsg & Hp). exists sg. split; [right; exact Hsg|exact Hp].
Qed.

Lemma line_contains_line_covers (ps qs : list pt) :
  line_contains_line (Lr ps) (Lr qs) = Some true -> rect_contains_rect (ring_rect (Lr ps)) (ring_rect (Lr qs)) = true.
Proof.
  intros E. assert (Hlen : (2 <= length qs)%nat).
  { apply line_contains_line_true in E. destruct E as (_ & E & _). rewrite Lr_empty in E. apply Nat.ltb_ge, E. }
  rewrite (Lr_rect qs Hlen). apply bbox_in_rect; [apply (length_nonnil qs 1 Hlen)|].
  intros p Hp. destruct (line_point_is_end qs p Hlen Hp) as (sg & Hsg & Hend). rewrite <- Lr_segs in Hsg.
  destruct (line_contains_line_ends _ _ _ sg (seg_ends_in_rect ps) E Hsg) as [A B]. destruct Hend as [-> | ->]; assumption.
Qed.

(* Line.ContainsPoly (and ContainsRect through it) asks for the diagonal of the argument's rectangle *)
Lemma line_contains_poly_covers (ps : list pt) (p : poly) :
  line_contains_poly (Lr ps) p = Some true -> rect_contains_rect (ring_rect (Lr ps)) (poly_rect p) = true.
Proof.
  unfold line_contains_poly. destruct (ring_empty (Lr ps) || poly_empty p); [discriminate|].
  destruct (poly_rect p) as [mn mx]. destruct (negb (px mn =? px mx) && negb (py mn =? py mx)); [discriminate|].
  intros E. destruct (line_contains_line_ends _ _ _ (mn, mx) (seg_ends_in_rect ps) E (or_introl eq_refl)) as [A B]. rect_lia.
Qed.

Lemma ring_contains_ring_boxes (r o : rng) (allow : bool) :
  ring_contains_ring r o allow = true -> rect_contains_rect (ring_rect r) (ring_rect o) = true.
Proof.
  unfold ring_contains_ring. destruct (ring_empty r || ring_empty o); [discriminate|].
  destruct ((complexRingMinPoints <=? ring_npoints o)%nat && rcr_core r (RR (ring_rect o)) allow) eqn:E.
  - intros _. apply andb_true_iff in E. destruct E as [_ E]. apply rcr_core_rect in E. exact E.
  - apply rcr_core_rect.
Qed.

Lemma poly_contains_poly_covers (p o : poly) :
  poly_contains_poly p o = true -> rect_contains_rect (poly_rect p) (poly_rect o) = true.
Proof.
  unfold poly_contains_poly. destruct (ring_contains_ring (exterior p) (exterior o) true) eqn:E; [|discriminate].
  intros _. apply (ring_contains_ring_boxes _ _ _ E).
Qed.

Lemma poly_contains_line_covers (p : poly) (l : rng) :
  poly_contains_line p l = true -> rect_contains_rect (poly_rect p) (ring_rect l) = true.
Proof.
  unfold poly_contains_line. destruct (ring_contains_ring (exterior p) l true) eqn:E; [|discriminate].
  intros _. apply (ring_contains_ring_boxes _ _ _ E).
Qed.

Lemma answer_true (x : option bool) : match x with Some y => y | None => false end = true -> x = Some true.
Proof. destruct x as [[|]|]; [reflexivity|discriminate..]. Qed.

(* every Contains refuses an empty argument, so no hypothesis on b is needed *)
Theorem g_contains_covers (a b : shape) :
  gcb (g_of_shape a) (g_of_shape b) = true -> rect_contains_rect (g_rect (g_of_shape a)) (g_rect (g_of_shape b)) = true.
Proof.
  unfold gcb. destruct a as [p|r|ps|e hs], b as [q|s|qs|f gs]; rewrite ?g_of_line, ?g_of_poly;
    cbn [g_of_shape g_contains ob g_rect]; intros H.
  (* a point contains only what has the point as its rectangle *)
  - apply pt_eqb_eq in H. subst q. apply rcr_refl.
  - unfold point_contains_rect, point_rect in H. apply rect_eqb_eq in H. subst s. apply rcr_refl.
  - unfold point_contains_line, point_rect in H. apply andb_true_iff in H. destruct H as [_ H].
    apply rect_eqb_eq in H. rewrite H. apply rcr_refl.
  - unfold point_contains_poly, point_rect in H. apply andb_true_iff in H. destruct H as [_ H].
    apply rect_eqb_eq in H. rewrite H. apply rcr_refl.
  - rect_lia.
  - exact H.
  - unfold rect_contains_line in H. apply andb_true_iff in H. exact (proj2 H).
  - unfold rect_contains_poly in H. apply andb_true_iff in H. exact (proj2 H).
  - apply line_point_in_rect in H. rect_lia.
  - apply (line_contains_poly_covers ps (rect_poly s)), answer_true, H.
  - apply line_contains_line_covers, answer_true, H.
  - apply line_contains_poly_covers, answer_true, H.
  - apply poly_point_in_rect in H. rect_lia.
  - apply (poly_contains_poly_covers (Pg e hs) (rect_poly s) H).
  - apply (poly_contains_line_covers (Pg e hs) (Lr qs) H).
  - apply (poly_contains_poly_covers (Pg e hs) (Pg f gs) H).
Qed.

(* the base geometry of a leaf is built from coordinates *)
Lemma leaf_geom_shape (o : obj) (g : gshape) : leaf_geom o = Some g -> exists s, g = g_of_shape s.
Proof.
  destruct o as [p|p|r|ps|[|e hs]|b|k cs]; cbn [leaf_geom]; intros H; inversion H.
  - exists (SPoint p). reflexivity.
  - exists (SPoint p). reflexivity.
  - exists (SRect r). reflexivity.
  - exists (SLine ps). reflexivity.
  - exists (SPoly [] []). reflexivity.
  - exists (SPoly e hs). reflexivity.
Qed.

(* b within the geometry g, b not empty: g's rectangle covers b's *)
Theorem o_within_g_covers (b : obj) : forall s, obj_wf b -> o_empty b = false ->
  o_within_g b (g_of_shape s) = true -> rect_contains_rect (g_rect (g_of_shape s)) (o_rect b) = true.
Proof.
  induction b as [o go Hl|b IH|k cs IH] using obj_leaf_ind; intros s Hw He H.
  - rewrite (leaf_o_within_g o go _ Hl) in H. rewrite <- (leaf_g_rect o go Hl).
    destruct (leaf_geom_shape o go Hl) as [sb ->]. apply (g_contains_covers s sb H).
  - apply (IH s Hw He H).
  - apply coll_within_spec in H. destruct H as [_ H]. rewrite Forall_forall in IH.
    apply (rect_of_positions _ (OColl k cs) Hw He).
    intros p Hp. cbn [positions] in Hp. apply in_flat_map in Hp. destruct Hp as (c & Hc & Hp).
    destruct (H c Hc) as (_ & _ & Hc2).
    pose proof (obj_wf_child k cs c Hw Hc) as Hwc. pose proof (pos_in_rect c p Hwc Hp) as Hin.
    pose proof (IH c Hc s Hwc (pos_nonempty c p Hp) Hc2). rect_lia.
Qed.

(* every occupied position of b lies in a non-empty part of b *)
Lemma pos_in_part (b : obj) (p : pt) : In p (positions b) ->
  exists part, In part (for_each_part b) /\ o_empty part = false /\ In p (positions part).
Proof.
  intros Hp. rewrite <- positions_for_each_part in Hp. apply in_flat_map in Hp. destruct Hp as (part & Hin & Hpp).
  exists part. split; [exact Hin|split; [exact (pos_nonempty part p Hpp)|exact Hpp]].
Qed.

Theorem o_contains_covers (a : obj) : forall b, obj_wf a -> obj_wf b -> o_empty b = false ->
  o_contains a b = true -> rect_contains_rect (o_rect a) (o_rect b) = true.
Proof.
  induction a as [o go Hl|a IH|k cs IH] using obj_leaf_ind; intros b Hwa Hwb He H.
  - rewrite (leaf_o_contains o go b Hl) in H. rewrite <- (leaf_g_rect o go Hl).
    destruct (leaf_geom_shape o go Hl) as [sa ->]. apply (o_within_g_covers b sa Hwb He H).
  - apply (IH b Hwa Hwb He H).
  - apply coll_contains_spec in H. destruct H as (_ & _ & H). rewrite Forall_forall in IH.
    apply (rect_of_positions _ b Hwb He).
    intros p Hp. destruct (pos_in_part b p Hp) as (part & Hin & Hpe & Hpp).
    destruct (H part (proj2 (in_nonempty _ part) (conj Hin Hpe))) as (c & Hc & Ec & _ & Hcp).
    destruct (part_c_rect_in_obj b part Hwb Hin Hpe) as [_ Hwp].
    pose proof (IH c Hc part (obj_wf_child k cs c Hwa Hc) Hwp Hpe Hcp) as Hcov.
    pose proof (child_rect_in_coll k cs c Hwa Hc Ec) as Hchild. pose proof (pos_in_rect part p Hwp Hpp) as Hpos. rect_lia.
Qed.

Print Assumptions g_contains_covers.
Print Assumptions o_contains_covers.
