(* Base.v — common vocabulary of the geometry models.
   Coordinates are integers: the harness scales every case onto a common dyadic
   grid 2^-s (DESIGN §3.1), so a Go float64 coordinate x is the integer x*2^s.
   All kernel operations (difference, product of differences, comparison,
   quotient comparison) commute exactly with that scaling.
   With the definitions stand the lemmas that say what they compute (point
   equality, the two rectangle tests as inequalities) and two facts about filter. *)
From Coq Require Export ZArith List Bool Lia.
Export ListNotations.
Open Scope Z_scope.

Definition pt : Type := (Z * Z)%type.
Definition seg : Type := (pt * pt)%type.
(* A rectangle is (min, max). *)
Definition rect : Type := (pt * pt)%type.

Definition px (p : pt) : Z := fst p.
Definition py (p : pt) : Z := snd p.

Definition pt_eqb (p q : pt) : bool := (px p =? px q) && (py p =? py q).

Lemma pt_eqb_eq p q : pt_eqb p q = true <-> p = q.
Proof.
  destruct p as [a b], q as [c d]; unfold pt_eqb, px, py; simpl.
  rewrite andb_true_iff, !Z.eqb_eq. split.
  - intros [-> ->]; reflexivity.
  - intros H; inversion H; auto.
Qed.

Lemma pt_eqb_refl p : pt_eqb p p = true.
Proof. apply pt_eqb_eq; reflexivity. Qed.

Lemma pt_eqb_sym p q : pt_eqb p q = pt_eqb q p.
Proof. unfold pt_eqb. rewrite (Z.eqb_sym (px p)), (Z.eqb_sym (py p)). reflexivity. Qed.

(* Segment.Rect (segment.go:25-36) *)
Definition seg_rect (s : seg) : rect :=
  let '(a, b) := s in
  ((Z.min (px a) (px b), Z.min (py a) (py b)),
   (Z.max (px a) (px b), Z.max (py a) (py b))).

(* Rect.ContainsPoint (rect.go:128-131) *)
Definition rect_contains_point (r : rect) (p : pt) : bool :=
  let '(mn, mx) := r in
  (px mn <=? px p) && (px p <=? px mx) && (py mn <=? py p) && (py p <=? py mx).

(* Rect.IntersectsRect (rect.go:147-155) *)
Definition rect_intersects_rect (r o : rect) : bool :=
  let '(rmn, rmx) := r in let '(omn, omx) := o in
  if (py omx <? py rmn) || (py rmx <? py omn) then false
  else if (px omx <? px rmn) || (px rmx <? px omn) then false
  else true.

(* Rect.ContainsRect (rect.go:137-145) *)
Definition rect_contains_rect (r o : rect) : bool :=
  let '(rmn, rmx) := r in let '(omn, omx) := o in
  if (px omn <? px rmn) || (px rmx <? px omx) then false
  else if (py omn <? py rmn) || (py rmx <? py omx) then false
  else true.

(* the two rectangle tests as inequalities; both have the shape "none of four gates is shut" *)
Lemma two_gates (a b c d : bool) :
  (if a || b then false else if c || d then false else true) = true <->
  a = false /\ b = false /\ c = false /\ d = false.
Proof.
  assert (E : forall x y : bool, (if x then false else y) = negb x && y) by (intros [|] y; reflexivity).
  rewrite !E, !andb_true_iff, !negb_true_iff, !orb_false_iff. tauto.
Qed.

Lemma rir_iff (r o : rect) :
  rect_intersects_rect r o = true <->
  py (fst r) <= py (snd o) /\ py (fst o) <= py (snd r) /\
  px (fst r) <= px (snd o) /\ px (fst o) <= px (snd r).
Proof.
  destruct r as [[a b] [c d]], o as [[e f] [g h]].
  unfold rect_intersects_rect, px, py; cbn [fst snd]. rewrite two_gates, !Z.ltb_ge. reflexivity.
Qed.

Lemma rcr_iff (r o : rect) :
  rect_contains_rect r o = true <->
  px (fst r) <= px (fst o) /\ px (snd o) <= px (snd r) /\
  py (fst r) <= py (fst o) /\ py (snd o) <= py (snd r).
Proof.
  destruct r as [[a b] [c d]], o as [[e f] [g h]].
  unfold rect_contains_rect, px, py; cbn [fst snd]. rewrite two_gates, !Z.ltb_ge. reflexivity.
Qed.

Definition rect_eqb (r o : rect) : bool :=
  pt_eqb (fst r) (fst o) && pt_eqb (snd r) (snd o).

(* Rect.Area (rect.go:42-44) — exact on the grid (scaled by 2^2s, order preserved) *)
Definition rect_area (r : rect) : Z :=
  let '(mn, mx) := r in (px mx - px mn) * (py mx - py mn).

Definition b2z (b : bool) : Z := if b then 1 else 0.

(* filtering by a test that implies another gives a list no longer, and shorter when some element tells them apart *)
Lemma filter_length_le {A : Type} (f g : A -> bool) (l : list A) :
  (forall x, In x l -> f x = true -> g x = true) -> (length (filter f l) <= length (filter g l))%nat.
Proof.
  induction l as [|x l IH]; intros H; [cbn; lia|]. cbn [filter].
  assert (IH' : (length (filter f l) <= length (filter g l))%nat) by (apply IH; intros y Hy; apply H; right; exact Hy).
  destruct (f x) eqn:Ef.
  - rewrite (H x (or_introl eq_refl) Ef). cbn [length]. lia.
  - destruct (g x); cbn [length]; lia.
Qed.

Lemma filter_length_lt {A : Type} (f g : A -> bool) (l : list A) (w : A) :
  (forall x, In x l -> f x = true -> g x = true) -> In w l -> g w = true -> f w = false ->
  (length (filter f l) < length (filter g l))%nat.
Proof.
  induction l as [|x l IH]; intros H Hin Hg Hf; [destruct Hin|]. cbn [filter].
  assert (Hl : forall y, In y l -> f y = true -> g y = true) by (intros y Hy; apply H; right; exact Hy).
  destruct Hin as [->|Hin].
  - rewrite Hf, Hg. cbn [length]. pose proof (filter_length_le f g l Hl). lia.
  - pose proof (IH Hl Hin Hg Hf) as IH'. destruct (f x) eqn:Ef.
    + rewrite (H x (or_introl eq_refl) Ef). cbn [length]. lia.
    + destruct (g x); cbn [length]; lia.
Qed.
