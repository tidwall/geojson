(* ParsedLex.v — property C17 for objects built through Parse: the hypotheses of
   the well-formedness theorem (EmitWellFormed.emit_wellformed) hold for every
   object that Parse returns for a document whose tokens are JSON tokens and
   whose numbers are finite.  So the bytes JSON() writes for it are a text of
   the RFC 8259 grammar, for every option set. *)
From GJ Require Import Base JsonConst Json JsonSpec JsonProofs EmitProofs JsonGrammar EmitWellFormed RoundTrip ParsedForm.
Open Scope Z_scope.

Definition nb (f : fnum) : Prop := f <> FBad.

Lemma fin_nb (f : fnum) : fin f -> nb f.
Proof. destruct f; cbn; [discriminate|contradiction|contradiction]. Qed.

Lemma Forall_fin_nb (l : list fnum) : Forall fin l -> Forall nb l.
Proof. intros H. eapply Forall_impl; [|exact H]. exact fin_nb. Qed.

Lemma fin_pt_ok (p : fpt) : fin_pt p -> fpt_ok p.
Proof. intros [A B]. split; apply fin_nb; assumption. Qed.

Lemma lex_coll_intro (k : Z) (cs : list gobj) (ex : option extra) : members_lex ex -> Forall lex_o cs -> lex_o (JColl k cs ex).
Proof.
  intros Hm H. cbn [lex_o]. split; [exact Hm|]. apply all_Forall. exact H.
Qed.

Lemma take_nums_nb (allow : bool) (n : nat) (l : list jv) (t : list fnum) :
  Forall (fun x => fin_doc x = true) l -> take_nums allow n l = Some t -> Forall nb t.
Proof.
  intros Hl H. destruct (take_nums_some _ _ _ _ H) as [-> _]. apply Forall_map. eapply Forall_impl; [|exact (Forall_firstn' _ l n Hl)].
  intros v Hv. destruct v as [| | |r f|r d|l0|ms]; try discriminate. cbn [num_of fin_doc] in *. destruct f; discriminate.
Qed.

Lemma extra_of_nums_nb (nums : list fnum) : Forall nb nums -> Forall nb (ex_values (extra_of_nums nums)).
Proof.
  intros H. destruct nums as [|x [|y [|z [|m r]]]]; cbn [extra_of_nums ex_values values].
  - constructor.
  - constructor.
  - constructor.
  - inversion H as [|? ? _ H1]; subst. inversion H1 as [|? ? _ H2]; subst. inversion H2 as [|? ? Hz H3]; subst.
    constructor; [exact Hz|constructor].
  - inversion H as [|? ? _ H1]; subst. inversion H1 as [|? ? _ H2]; subst. inversion H2 as [|? ? Hz H3]; subst.
    inversion H3 as [|? ? Hm H4]; subst. constructor; [exact Hz|]. constructor; [exact Hm|constructor].
Qed.

Lemma point_coords_nb (top : bool) (v : jv) (p : fpt) (ex : option extra) :
  fin_doc v = true -> parse_point_coords top (Some v) = ROk (p, ex) -> fpt_ok p /\ Forall nb (ex_values ex).
Proof.
  intros Hv H. destruct (point_coords_ok _ _ _ _ H) as (v' & x & y & r & Ev & E & -> & ->). inversion Ev; subst v'.
  pose proof (take_nums_nb true 4 _ _ (fin_doc_elems v Hv) E) as Hn.
  split; [|exact (extra_of_nums_nb _ Hn)]. inversion Hn as [|? ? Hx H1]; subst. inversion H1; subst. split; assumption.
Qed.

Lemma lex_hered : hered (fun v => lex_ok v = true).
Proof.
  split; cbn [lex_ok].
  - intros ms k v H Hin. rewrite forallb_forall in H. specialize (H (k, v) Hin). cbn [fst snd] in H. apply andb_true_iff in H. tauto.
  - intros l x H Hin. rewrite forallb_forall in H. exact (H x Hin).
  - intros f ms H. apply forallb_forall. intros x Hx. apply filter_In in Hx. rewrite forallb_forall in H. apply H. tauto.
Qed.

(* the members of an object are none (the coordinate parsers store none) or the document's foreign members *)
Lemma st_ok_lex (n : nat) (ex : option extra) : st_ok n ex -> members_lex ex.
Proof. destruct ex as [e|]; [|intros; exact I]. cbn [st_ok members_lex]. intros (_ & _ & ->). exact I. Qed.

Lemma members_lex_with (n : nat) (ex : option extra) (foreign : list (jkey * jv)) :
  lex_ok (JObj foreign) = true -> st_ok n ex -> members_lex (with_members ex foreign).
Proof.
  intros Hl Hs. destruct foreign as [|m r]; cbn [with_members]; [exact (st_ok_lex n ex Hs)|].
  destruct ex as [e|]; cbn [members_lex members]; exact Hl.
Qed.

Definition both (v : jv) : Prop := fin_doc v = true /\ lex_ok v = true.

Lemma both_hered : hered both.
Proof. exact (hered_and _ _ fin_doc_hered lex_hered). Qed.

(* every value the writers will read exists and is a number or null *)
Lemma values_ok_st (n : nat) (ex : option extra) (foreign : list (jkey * jv)) :
  st_ok n ex -> Forall nb (ex_values ex) -> values_ok (with_members ex foreign) n.
Proof.
  intros Hs Hn. destruct ex as [e|]; [|destruct foreign; cbn; [exact I|split; [lia|constructor]]].
  destruct Hs as (_ & Hl & _). destruct foreign; cbn [with_members values_ok dims values ex_values] in *; (split; [lia|exact Hn]).
Qed.

(* a Point, LineString or Polygon built from accepted coordinates and the foreign members (none, for a child of a Multi* ) *)
Lemma point_lex (top : bool) (v : jv) (p : fpt) (ex : option extra) (foreign : list (jkey * jv)) :
  fin_doc v = true -> lex_ok (JObj foreign) = true -> parse_point_coords top (Some v) = ROk (p, ex) ->
  lex_o (JPoint p (with_members ex foreign)).
Proof.
  intros Hv Hl Ep. destruct (point_coords_nb _ _ _ _ Hv Ep) as [Hp Hn]. pose proof (point_coords_form _ _ _ _ Ep) as Hs.
  split; [exact Hp|]. split; [exact (values_ok_st 1 ex foreign Hs Hn)|exact (members_lex_with 1 ex foreign Hl Hs)].
Qed.

Lemma line_lex (top : bool) (v : jv) (ps : list fpt) (ex : option extra) (foreign : list (jkey * jv)) :
  fin_doc v = true -> lex_ok (JObj foreign) = true -> parse_line_coords top (Some v) = ROk (ps, ex) ->
  lex_o (JLine ps (with_members ex foreign)).
Proof.
  intros Hv Hl Ep. destruct (line_coords_form _ _ _ _ Hv Ep) as (Hps & Hs & Hf).
  split; [eapply Forall_impl; [|exact Hps]; exact fin_pt_ok|].
  split; [exact (values_ok_st _ ex foreign Hs (Forall_fin_nb _ Hf))|exact (members_lex_with _ ex foreign Hl Hs)].
Qed.

Lemma poly_lex (top : bool) (v : jv) (rings : list (list fpt)) (ex : option extra) (foreign : list (jkey * jv)) :
  fin_doc v = true -> lex_ok (JObj foreign) = true -> parse_poly_coords top (Some v) = ROk (rings, ex) ->
  lex_o (JPoly rings (with_members ex foreign)).
Proof.
  intros Hv Hl Ep. destruct (poly_coords_form _ _ _ _ Hv Ep) as (Hr & Hs & Hf).
  split; [eapply Forall_impl; [|exact Hr]; intros r Hrr; eapply Forall_impl; [|exact Hrr]; exact fin_pt_ok|].
  split; [exact (values_ok_st _ ex foreign Hs (Forall_fin_nb _ Hf))|exact (members_lex_with _ ex foreign Hl Hs)].
Qed.

Lemma multi_child_lex (k : Z) (x : jv) (y : gobj) : fin_doc x = true -> multi_child k x = ROk y -> lex_o y.
Proof.
  intros Hx. unfold multi_child. destruct (k =? 0); [|destruct (k =? 1)].
  - unfold child_point. destruct (parse_point_coords false (Some x)) as [[p ex]|c] eqn:Ep; [|discriminate].
    intros Hxy. inversion Hxy; subst. exact (point_lex false x p ex [] Hx eq_refl Ep).
  - unfold child_line. destruct (parse_line_coords false (Some x)) as [[ps ex]|c] eqn:Ep; [|discriminate].
    destruct (length ps <? 2)%nat; [discriminate|]. intros Hxy. inversion Hxy; subst. exact (line_lex false x ps ex [] Hx eq_refl Ep).
  - unfold child_poly. destruct (parse_poly_coords false (Some x)) as [[rings ex]|c] eqn:Ep; [|discriminate].
    destruct rings as [|ext holes]; [discriminate|].
    destruct (forallb ring_ok (ext :: holes)); [|discriminate]. intros Hxy. inversion Hxy; subst.
    exact (poly_lex false x (ext :: holes) ex [] Hx eq_refl Ep).
Qed.

(* every ordinate the writers print exists, and every member text is lexically JSON *)
Theorem parse_lex (fuel : nat) : forall (o : popts) (one : Z) (v : jv) (g : gobj),
  both v -> parse fuel o one v = POk g -> lex_o g.
Proof.
  intros o one. apply (parse_ind both lex_o). intros rec ms tname K g Hv IH _ H.
  pose proof (hered_keys _ both_hered ms Hv) as Hks. pose proof Hks as (Hc & _ & Hg & _ & Hffin & Hfl).
  set (ks := scan_keys ms) in *. set (foreign := k_foreign ks) in *.
  pose proof (members_lex_with 0 None foreign Hfl I) as Hnone.
  destruct K as [| | | |k]; cbn [parse_kind] in H.
  - destruct (parse_pt_ok _ _ _ H) as (p & ex & Ep & _ & Hg'). fold foreign in Hg'.
    destruct (k_coords ks) as [cv|] eqn:Ec; [|discriminate].
    pose proof (point_lex true cv p ex foreign (proj1 (Hc cv eq_refl)) Hfl Ep) as Hp.
    destruct Hg' as [[-> _]|(-> & _ & _)]; [exact Hp|exact (proj1 Hp)].
  - destruct (parse_ln_ok _ _ _ H) as (cv & ps & ex & Ec & Ep & _ & -> & _).
    exact (line_lex true cv ps ex foreign (proj1 (Hc cv Ec)) Hfl Ep).
  - destruct (parse_pg_ok _ _ _ H) as (cv & ext & holes & ex & Ec & Ep & _ & _ & Hg'). fold foreign in Hg'.
    destruct Hg' as [[-> _]|(-> & _ & _ & Er)]; [exact (poly_lex true cv _ ex foreign (proj1 (Hc cv Ec)) Hfl Ep)|].
    apply andb_true_iff in Er. destruct (perfect_rect_form ext (FV 0, FV 0) (proj2 Er)) as (A & B & _).
    split; apply fin_pt_ok; assumption.
  - destruct (parse_ft_ok _ _ _ _ _ H) as (gv & base & Eg & Eb & Hcr). fold foreign in Hcr.
    pose proof (IH gv base (Hg gv Eg) Eb) as Hb. destruct Hcr as [Ecr|[_ ->]]; [|split; [exact Hb|exact Hnone]].
    destruct (circ_of_ok _ _ _ _ _ Ecr) as (p & _ & Ec & _ & Hbase). destruct (circle_of_form o one p _ g Hffin Ec) as (m & -> & Hm & _).
    split; [destruct Hbase as [->|[ex ->]]; apply Hb|exact (fin_nb m Hm)].
  - destruct (parse_coll_ok _ _ _ _ _ H) as (cv & kids & Ec & Ekids & -> & _).
    pose proof (keys_in_coll _ k ks cv Hks Ec) as Hcv. apply lex_coll_intro; [exact Hnone|].
    eapply (map_until_inv _ both); [exact (hered_elems _ both_hered cv Hcv)| |exact Ekids].
    intros x y Hx Hxy. unfold coll_child in Hxy. destruct (k <? 3); [exact (multi_child_lex k x y (proj1 Hx) Hxy)|].
    unfold pres_res in Hxy. destruct (rec x) as [gx|cx] eqn:Ex; [|discriminate]. inversion Hxy; subst. exact (IH x y Hx Ex).
Qed.

(* C17, objects built through Parse: the bytes are a text of the JSON grammar for an object whose
   first member is "type": <name> *)
Theorem parsed_bytes_are_json (fmt : Z -> list Z) (fmt_number : forall k, num_lexeme (fmt k) = true)
    (fuel : nat) (o : popts) (one : Z) (v : jv) (g : gobj) :
  fin_doc v = true -> lex_ok v = true -> parse fuel o one v = POk g ->
  json_text (emit fmt g) (emit_jv fmt g) /\
  exists rest, emit_jv fmt g = JObj ((key s_type, str_jv (type_name g)) :: rest).
Proof.
  intros Hv Hl Hp. apply (emit_wellformed fmt fmt_number g).
  - exact (proj1 (pf_wf o one g (parse_pf fuel o one v g Hv Hp))).
  - exact (parse_lex fuel o one v g (conj Hv Hl) Hp).
Qed.

Print Assumptions parsed_bytes_are_json.
