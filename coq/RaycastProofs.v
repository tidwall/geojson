(* RaycastProofs.v — C19: Raycast equals its specification.  The model is cut into the blocks
   of the Go function, each block gets its own specification over the six coordinates, and
   the blocks are chained in the order the function runs them. *)
From GJ Require Import Base Kernel KernelSpec.

Lemma true_iff_intro (P : Prop) : P -> (true = true <-> P). Proof. tauto. Qed.
Lemma false_iff_intro (P : Prop) : ~ P -> (false = true <-> P). Proof. intuition discriminate. Qed.

Section Blocks.
Variables ax ay bx by_ x y : Z.

(* the specification (on_seg, crosses), over the coordinates *)
Local Definition crossp := (bx - ax) * (y - ay) - (by_ - ay) * (x - ax).
Local Definition yrange := Z.min ay by_ <= y <= Z.max ay by_.
Local Definition onp := crossp = 0 /\ Z.min ax bx <= x <= Z.max ax bx /\ yrange.
Local Definition crossesp := ay <= y < by_ /\ 0 < crossp \/ by_ <= y < ay /\ crossp < 0.
Local Definition ybelow := Z.min ay by_ <= y < Z.max ay by_.
(* r = (In, On) is the right result *)
Local Definition answers (r : bool * bool) :=
  (fst r = true <-> ~ onp /\ crossesp) /\ (snd r = true <-> onp).

Lemma miss : ~ onp -> ~ crossesp -> answers (false, false).
Proof. intros H1 H2. split; apply false_iff_intro; tauto. Qed.
Lemma hit_on : onp -> answers (false, true).
Proof. intros H. split; [apply false_iff_intro | apply true_iff_intro]; tauto. Qed.
Lemma hit_in : ~ onp -> crossesp -> answers (true, false).
Proof. intros H1 H2. split; [apply true_iff_intro | apply false_iff_intro]; tauto. Qed.
Lemma decides (b : bool) : ~ onp -> (b = true <-> crossesp) ->
  answers (if b then (true, false) else (false, false)).
Proof.
  intros Hoff [Ht Hf]. destruct b; [apply hit_in | apply miss]; auto.
  intros Hc. discriminate (Hf Hc).
Qed.

(* Walk a decision tree: find the comparison the goal is waiting for, split on it, and drop
   the branch the context refutes.  [repeat step] ends when no comparison is left: [scrutinee]
   has no catch-all case and fails then. *)
Ltac scrutinee t :=
  lazymatch t with
  | ?u <-> _ => scrutinee u
  | ?u = _ => scrutinee u
  | answers ?r => scrutinee r
  | (if ?c then _ else _) => scrutinee c
  | match ?c with Some _ => _ | None => _ end => scrutinee c
  | andb ?a _ => scrutinee a
  | orb ?a _ => scrutinee a
  | ?a <? ?b => constr:(Z.ltb_spec a b)
  | ?a <=? ?b => constr:(Z.leb_spec a b)
  | ?a =? ?b => constr:(Z.eqb_spec a b)
  end.
Ltac step :=
  lazymatch goal with
  | |- ?g => let s := scrutinee g in destruct s; cbn [andb orb]; try (exfalso; lia)
  end.

Lemma fq_eq_spec u dx v dy : dx <> 0 \/ dy <> 0 ->
  if fq_eq u dx v dy then dx <> 0 /\ dy <> 0 /\ u * dy = v * dx
  else dx <> 0 -> dy <> 0 -> u * dy <> v * dx.
Proof. intros H. unfold fq_eq. repeat step; lia. Qed.

Lemma sgn_mul_pos D P : 0 < P ->
  (0 < D * P <-> 0 < D) /\ (0 <= D * P <-> 0 <= D) /\
  (D * P < 0 <-> D < 0) /\ (D * P <= 0 <-> D <= 0).
Proof. intros HP. repeat split; intros; nia. Qed.

(* where the model compares slopes, d1 and d2 have the same strict sign and det <> 0 *)
Lemma slope_ge_spec v nud c d1 n2 d2 :
  0 < d1 /\ 0 < d2 \/ d1 < 0 /\ d2 < 0 -> (v - c) * d2 - n2 * d1 <> 0 ->
  (slope_ge v nud c d1 n2 d2 = true <-> 0 < (v - c) * d2 - n2 * d1).
Proof.
  intros Hs Hd. assert (HP : 0 < d1 * d2) by nia.
  destruct (sgn_mul_pos ((v - c) * d2 - n2 * d1) (d1 * d2) HP) as (E1 & E2 & _).
  unfold slope_ge. cbv zeta. destruct nud; repeat step; first [apply true_iff_intro | apply false_iff_intro]; lia.
Qed.

(* the blocks of Segment.Raycast (raycast.go:12-99), in order: the two early returns,
   degenerate or horizontal segment, point on a vertical segment, equal quotients, the
   nudged range test, the decision on x alone, the comparison of slopes *)

Local Definition out1 := (ay <? by_) && ((y <? ay) || (by_ <? y)).
Local Definition out2 := (by_ <? ay) && ((y <? by_) || (ay <? y)).
Local Definition horiz : option (bool * bool) :=
  if ay =? by_ then
    if ax =? bx then Some (if pt_eqb (x, y) (ax, ay) then (false, true) else (false, false))
    else if y =? by_ then
      if ax <? bx then if (ax <=? x) && (x <=? bx) then Some (false, true) else None
      else if (bx <=? x) && (x <=? ax) then Some (false, true) else None
    else None
  else None.
Local Definition vert : bool :=
  (ax =? bx) && (x =? bx) &&
  (if ay <? by_ then (ay <=? y) && (y <=? by_) else (by_ <=? y) && (y <=? ay)).
Local Definition nud := (y =? ay) || (y =? by_).
Local Definition oor :=
  if ay <? by_ then lt_n y nud ay || gt_n y nud by_ else lt_n y nud by_ || gt_n y nud ay.
Local Definition xdec : option (bool * bool) :=
  if bx <? ax then
    if ax <=? x then Some (false, false) else if x <=? bx then Some (true, false) else None
  else
    if bx <=? x then Some (false, false) else if x <=? ax then Some (true, false) else None.
Local Definition final : bool * bool :=
  if ay <? by_ then
    if slope_ge y nud ay (x - ax) (by_ - ay) (bx - ax) then (true, false) else (false, false)
  else
    if slope_ge y nud by_ (x - bx) (ay - by_) (ax - bx) then (true, false) else (false, false).
Local Definition blocks : bool * bool :=
  if out1 then (false, false) else if out2 then (false, false)
  else match horiz with
  | Some r => r
  | None =>
    if vert then (false, true)
    else if fq_eq (x - ax) (bx - ax) (y - ay) (by_ - ay) then (false, true)
    else if oor then (false, false)
    else match xdec with Some r => r | None => final end
  end.

Lemma raycast_blocks : raycast ((ax, ay), (bx, by_)) (x, y) = blocks.
Proof. reflexivity. Qed.

(* past the early returns the ordinate is in range, unless the segment is horizontal *)
Lemma early_spec : if out1 then ~ yrange else if out2 then ~ yrange else (ay <> by_ -> yrange).
Proof. unfold out1, out2, yrange. repeat step; lia. Qed.

Lemma off_range : ~ yrange -> answers (false, false).
Proof. intros H. apply miss; unfold onp, crossesp, yrange in *; lia. Qed.

(* a point or a horizontal segment; past this block the end points differ, and a horizontal
   segment does not contain the point *)
Lemma horiz_spec :
  match horiz with
  | Some r => answers r
  | None => (ax <> bx \/ ay <> by_) /\ (ay = by_ -> ~ onp)
  end.
Proof.
  unfold horiz, pt_eqb, px, py. cbn [fst snd]. repeat step.
  (* a = b: p = a, p off a (x or y differs); a horizontal segment through p: p inside *)
  1, 4, 7: apply hit_on; unfold onp, crossp, yrange; subst; lia.
  1, 2: apply miss; unfold onp, crossesp, yrange; lia.
  all: unfold onp, yrange; lia.
Qed.

(* on a vertical segment; if not, a vertical segment does not contain the point *)
Lemma vert_spec : if vert then onp else (ax = bx -> ~ onp).
Proof.
  unfold vert. repeat step.
  (* vert = true, upwards and downwards *)
  1, 4: unfold onp, crossp, yrange; subst; lia.
  all: unfold onp, yrange; lia.
Qed.

(* on the line and in range on y, hence in range on x *)
Lemma on_line : crossp = 0 -> ay <> by_ -> yrange -> onp.
Proof. unfold onp, crossp, yrange. nia. Qed.

(* equal quotients: on the line, neither vertical nor horizontal *)
Lemma fq_spec : (ay <> by_ -> yrange) -> ax <> bx \/ ay <> by_ ->
  if fq_eq (x - ax) (bx - ax) (y - ay) (by_ - ay) then onp else (ax <> bx -> ay <> by_ -> ~ onp).
Proof.
  intros HR Hab. generalize (fq_eq_spec (x - ax) (bx - ax) (y - ay) (by_ - ay)).
  destruct (fq_eq _ _ _ _); intros H.
  - apply on_line; [unfold crossp | | apply HR]; lia.
  - unfold onp, crossp. lia.
Qed.

(* level with the upper end point, or a horizontal segment: no crossing *)
Lemma oor_spec : (ay <> by_ -> yrange) -> if oor then ~ crossesp else ybelow.
Proof. unfold oor, nud, lt_n, gt_n, yrange, crossesp, ybelow. intros HR. repeat step; lia. Qed.

(* right of the box no crossing; left of it, and level with it, a crossing *)
Lemma right_of : Z.max ax bx <= x -> ~ crossesp.
Proof. unfold crossesp, crossp. nia. Qed.

Lemma left_of : x <= Z.min ax bx -> ybelow -> ~ onp -> crossesp.
Proof.
  unfold crossesp, ybelow, onp, yrange, crossp. intros Hx Hy Hoff.
  destruct (Z.lt_ge_cases ay by_); [left | right]; (split; [lia|]); nia.
Qed.

Lemma xdec_spec : ybelow -> ~ onp ->
  match xdec with
  | Some r => answers r
  | None => Z.min ax bx < x < Z.max ax bx
  end.
Proof.
  intros HR Hoff. unfold xdec. repeat step.
  1, 4: apply miss; [assumption | apply right_of; lia].
  1, 3: apply hit_in; [assumption | apply left_of; [lia | assumption | assumption]].
  all: lia.
Qed.

(* strictly inside the box and off the line: the slopes decide; downwards the model takes
   the cross product from b, which is the opposite of crossp *)
Lemma final_spec : ybelow -> ~ onp -> Z.min ax bx < x < Z.max ax bx -> answers final.
Proof.
  intros HR Hoff Hx. unfold ybelow in HR.
  assert (Hc : crossp <> 0) by (unfold onp, yrange in Hoff; lia).
  unfold final, crossp in *. step; apply (decides _ Hoff); rewrite slope_ge_spec by lia.
  all: unfold crossesp, crossp; lia.
Qed.

Lemma blocks_spec : answers blocks.
Proof.
  unfold blocks.
  generalize early_spec. destruct out1; [apply off_range|]. destruct out2; [apply off_range|].
  intros HR.
  generalize horiz_spec. destruct horiz as [r|]; [trivial|]. intros [Hab Hflat].
  generalize vert_spec. destruct vert; [apply hit_on|]. intros Hvert.
  generalize (fq_spec HR Hab). destruct (fq_eq _ _ _ _); [apply hit_on|]. intros Hfq.
  (* horizontal, vertical, or neither: the point is off the segment *)
  assert (Hoff : ~ onp) by (destruct (Z.eq_dec ay by_), (Z.eq_dec ax bx); tauto).
  generalize (oor_spec HR). destruct oor; [apply miss; assumption|]. intros HR'.
  generalize (xdec_spec HR' Hoff). destruct xdec as [r|]; [trivial|]. intros Hx.
  exact (final_spec HR' Hoff Hx).
Qed.

End Blocks.

Lemma raycast_spec (s : seg) (p : pt) :
  (raycast_in s p = true <-> (~ on_seg s p /\ crosses s p)) /\
  (raycast_on s p = true <-> on_seg s p).
Proof.
  destruct s as [[ax ay] [bx by_]], p as [x y].
  unfold raycast_in, raycast_on. rewrite raycast_blocks.
  exact (blocks_spec ax ay bx by_ x y).
Qed.

Theorem raycast_on_iff (s : seg) (p : pt) : raycast_on s p = true <-> on_seg s p.
Proof. apply raycast_spec. Qed.

Theorem raycast_in_iff (s : seg) (p : pt) :
  raycast_in s p = true <-> (~ on_seg s p /\ crosses s p).
Proof. apply raycast_spec. Qed.
