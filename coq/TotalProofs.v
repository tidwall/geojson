(* TotalProofs.v — property C05, model side: every predicate of the geometry and
   object models returns (the only fuelled function, Line.ContainsLine, never
   runs out of fuel). *)
From GJ Require Import Base Ring Pairs Obj LineProofs.

Theorem g_contains_total (a b : gshape) : g_contains a b <> None.
Proof.
  destruct a, b; cbn [g_contains ob]; try discriminate.
  - unfold line_contains_rect. apply line_contains_poly_total.
  - apply line_contains_line_total.
  - apply line_contains_poly_total.
Qed.

(* hence the object layer never observes an out-of-fuel answer *)
Theorem fuel_ok_always (a b : obj) : fuel_ok a b = true.
Proof.
  unfold fuel_ok. apply forallb_forall. intros x _. apply forallb_forall. intros y _.
  pose proof (g_contains_total x y) as H1. pose proof (g_contains_total y x) as H2.
  destruct (g_contains x y), (g_contains y x); congruence.
Qed.

Theorem gcb_is_g_contains (a b : gshape) : g_contains a b = Some (gcb a b).
Proof. unfold gcb. pose proof (g_contains_total a b). destruct (g_contains a b); congruence. Qed.

Print Assumptions g_contains_total.
Print Assumptions fuel_ok_always.
