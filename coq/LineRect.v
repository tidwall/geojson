(* LineRect.v — property C03: Line.ContainsRect is exact as a point-set statement.  A flat rectangle is
   its diagonal (LineComplete.v); a rectangle with positive width and height is never covered by
   finitely many segments: it contains more horizontal chords at different heights than the line string
   has segments, each chord needs a receiver segment of its own on its carrier line. *)
From GJ Require Import Base KernelSpec Ring RingSpec PairProofs LineProofs
  Invariance JordanQ JordanRect MirrorY LineSound LineComplete.
Import ListNotations.
Open Scope Z_scope.

(* the receiver scaled by K *)
Lemma Lr_segs_sc (K : Z) (ps : list pt) : ring_segments (Lr (map (sc K) ps)) = map (scs K) (ring_segments (Lr ps)).
Proof.
  rewrite !Lr_segs, (path_segs_tau (sc K)). apply map_ext. intros [a b]. reflexivity.
Qed.

Lemma scs_scs (k K : Z) (s : seg) : scs k (scs K s) = scs (k * K) s.
Proof.
  destruct s as [[ax ay] [bx by_]]. unfold scs, affs, aff, px, py. cbn [fst snd]. f_equal; f_equal; lia.
Qed.

Lemma covered_scaled (K k : Z) (ps : list pt) (P : pt) : covered (Lr ps) (k * K) P -> covered (Lr (map (sc K) ps)) k P.
Proof.
  intros (s & Hs & Hon). exists (scs K s). split; [rewrite Lr_segs_sc; apply in_map; exact Hs|]. rewrite scs_scs. exact Hon.
Qed.

(* an accepted non-degenerate segment has a non-degenerate receiver segment on its carrier line *)
Lemma accepted_has_carrier (l : rng) (a b : pt) : pt_eqb a b = false -> line_covers_segment l (a, b) = Some true ->
  exists s, In s (ring_segments l) /\ fst s <> snd s /\ cross (fst s) (snd s) a = 0 /\ cross (fst s) (snd s) b = 0.
Proof.
  intros Hab H. rewrite (covers_first_pass l a b Hab) in H.
  destruct (covers_walk_true _ l a b a 0 (dot_pos a b Hab) H) as (r & Hsrc & Hprog & _).
  destruct (src_line l a b a 0 r ltac:(unfold dotp; lia) Hsrc Hprog) as (s & Hs & Hne & Ca & Cb & _). exists s. auto.
Qed.

Section NonFlat.
Variables (ps : list pt) (x0 y0 x1 y1 : Z).
Hypothesis Hx : x0 < x1.
Hypothesis Hy : y0 < y1.
Hypothesis Hcov : forall k P, 0 < k -> in_rectb (scr k ((x0, y0), (x1, y1))) P = true -> covered (Lr ps) k P.

Let n := Z.of_nat (length (ring_segments (Lr ps))).
Let K := n + 2.
Let l' := Lr (map (sc K) ps).
Definition chordA (j : Z) : pt := (K * x0, K * y0 + j * (y1 - y0)).
Definition chordB (j : Z) : pt := (K * x1, K * y0 + j * (y1 - y0)).

Lemma K_pos : 0 < K. Proof. unfold K, n. lia. Qed.

Lemma chord_ne j : pt_eqb (chordA j) (chordB j) = false.
Proof.
  unfold pt_eqb, chordA, chordB, px, py. cbn [fst snd]. apply andb_false_iff. left. apply Z.eqb_neq. pose proof K_pos. nia.
Qed.

(* a point at a chord's height, between the sides, lies in the rectangle, at every scale *)
Lemma chord_point_in (k x j : Z) : 0 < k -> 1 <= j <= n + 1 -> x0 <= x <= x1 ->
  in_rectb (scr (k * K) ((x0, y0), (x1, y1))) (sc k (K * x, K * y0 + j * (y1 - y0))) = true.
Proof.
  intros Hk Hj Hx'. pose proof K_pos as HK. unfold scr, in_rectb. rewrite !sc_xy. unfold px, py. cbn [fst snd].
  assert (Hjr : 0 <= j * (y1 - y0) <= K * (y1 - y0)) by (unfold K; nia). set (T := j * (y1 - y0)) in *.
  assert (HT : 0 <= k * T <= k * (K * (y1 - y0))) by nia.
  assert (HX : k * K * x0 <= k * (K * x) <= k * K * x1) by nia.
  rewrite !andb_true_iff, !Z.leb_le. clear - HT HX. lia.
Qed.

Lemma chord_covered j : 1 <= j <= n + 1 -> forall k P, 0 < k -> on_seg (sc k (chordA j), sc k (chordB j)) P -> covered l' k P.
Proof.
  intros Hj k P Hk Hon. apply covered_scaled. apply Hcov; [pose proof K_pos; nia|].
  (* the rectangle is convex and holds both ends of the chord *)
  apply (on_seg_in_rect _ (sc k (chordA j)) (sc k (chordB j)) P); [apply chord_point_in|apply chord_point_in|exact Hon]; lia.
Qed.

Lemma chord_carrier j : 1 <= j <= n + 1 ->
  exists s, In s (ring_segments l') /\ fst s <> snd s /\ cross (fst s) (snd s) (chordA j) = 0 /\ cross (fst s) (snd s) (chordB j) = 0.
Proof.
  intros Hj. apply accepted_has_carrier; [apply chord_ne|]. apply line_covers_segment_complete. apply chord_covered. exact Hj.
Qed.

(* one receiver segment cannot carry two chords at different heights *)
Lemma carrier_height (s : seg) (i j : Z) : fst s <> snd s ->
  cross (fst s) (snd s) (chordA i) = 0 -> cross (fst s) (snd s) (chordB i) = 0 ->
  cross (fst s) (snd s) (chordA j) = 0 -> i = j.
Proof.
  (* chord i lies on the line of s, and so does the left end of chord j: the three points are collinear *)
  intros Hne A1 B1 A2. pose proof (on_line_trans _ _ _ _ _ Hne A1 B1 A2) as H. pose proof K_pos as HK.
  unfold chordA, chordB, cross, px, py in H. cbn [fst snd] in H.
  assert (E : K * (x1 - x0) * ((j - i) * (y1 - y0)) = 0) by lia.
  apply Z.mul_eq_0 in E. destruct E as [E|E]; [nia|]. apply Z.mul_eq_0 in E. lia.
Qed.

(* n + 1 chords at different heights, each with a carrier among the n segments of the receiver *)
Lemma impossible : False.
Proof.
  assert (Len : Z.of_nat (length (ring_segments l')) = n).
  { unfold l', n. rewrite Lr_segs_sc, map_length. reflexivity. }
  apply (pigeon seg_eq_dec (ring_segments l') (fun j s => fst s <> snd s /\
           cross (fst s) (snd s) (chordA j) = 0 /\ cross (fst s) (snd s) (chordB j) = 0)); rewrite Len.
  - intros j Hj. destruct (chord_carrier j Hj) as (s & Hs & R). exists s. split; assumption.
  - intros s i j _ _ _ (Hne & Ca & Cb) (_ & Ca' & _). apply (carrier_height s i j Hne Ca Cb Ca').
Qed.
End NonFlat.

Theorem nonflat_rect_not_covered (ps : list pt) (mn mx : pt) : px mn < px mx -> py mn < py mx ->
  ~ (forall k P, 0 < k -> in_rectb (scr k (mn, mx)) P = true -> covered (Lr ps) k P).
Proof.
  destruct mn as [x0 y0], mx as [x1 y1]. unfold px, py. cbn [fst snd]. intros Hx Hy H.
  exact (impossible ps x0 y0 x1 y1 Hx Hy H).
Qed.

(* the points of a flat rectangle are the points of its diagonal *)
Lemma flat_rect_points (mn mx P : pt) : rect_wf (mn, mx) -> px mn = px mx \/ py mn = py mx ->
  (in_rectb (mn, mx) P = true <-> on_seg (mn, mx) P).
Proof.
  destruct mn as [x0 y0], mx as [x1 y1], P as [qx qy]. unfold rect_wf, in_rectb, on_seg, cross, px, py. cbn [fst snd].
  intros [W1 W2] Hf. rewrite !andb_true_iff, !Z.leb_le. split.
  - intros (((A & B) & C) & D). split; [destruct Hf; nia|]. lia.
  - intros (Hc & Hxr & Hyr). lia.
Qed.

(* Line.ContainsRect, every well-formed rectangle: true exactly when every rational point of the closed
   rectangle lies on a segment of the (non-empty) line string *)
Theorem line_contains_rect_exact (ps : list pt) (q : rect) : ring_empty (Lr ps) = false -> rect_wf q ->
  (line_contains_rect (Lr ps) q = Some true <-> forall k P, 0 < k -> in_rectb (scr k q) P = true -> covered (Lr ps) k P).
Proof.
  intros El Hw. destruct q as [mn mx].
  assert (D : (px mn = px mx \/ py mn = py mx) \/ (px mn <> px mx /\ py mn <> py mx)) by lia.
  destruct D as [Hflat|[Nx Ny]].
  - rewrite (line_contains_flat_rect_exact (Lr ps) mn mx El Hflat).
    assert (Pts : forall k P, 0 < k -> in_rectb (scr k (mn, mx)) P = true <-> on_seg (sc k mn, sc k mx) P).
    { intros k P Hk. apply flat_rect_points; [apply (scr_wf k (mn, mx) Hk Hw)|]. rewrite !sc_xy. unfold px, py. cbn [fst snd].
      destruct Hflat as [E|E]; [left|right]; f_equal; exact E. }
    split; intros H k P Hk HP; apply (H k P Hk), (Pts k P Hk), HP.
  - (* positive width and height: the code answers false, and the rectangle is not covered *)
    rewrite (line_contains_rect_eq _ mn mx El), (proj2 (Z.eqb_neq _ _) Nx), (proj2 (Z.eqb_neq _ _) Ny). cbn [negb andb].
    split; [discriminate|]. intros H. exfalso. destruct Hw as [W1 W2]. cbn [fst snd] in W1, W2.
    apply (nonflat_rect_not_covered ps mn mx ltac:(lia) ltac:(lia) H).
Qed.

Print Assumptions line_contains_rect_exact.
