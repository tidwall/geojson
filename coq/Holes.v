(* Holes.v — property C02 with holes: Poly.IntersectsLine for a polygon WITH holes and a line string.
   Hypotheses on each hole: it is either not flagged convex, or flagged convex and really convex
   (Convex.hpc, no zero-length edges) — then the body of ringContainsRing (what it does when its
   bounding-box shortcut is not taken) decides "the line is inside the hole" as
   "every rational point of the line is strictly inside the hole".  Given that ringContainsRing itself
   decides so (HoleBox.v: the shortcut is sound):
   - the code answers true exactly when the line shares a point with the closed exterior and is
       not wholly strictly inside a hole (no validity assumption);
   - for a valid polygon — every boundary point of a hole lies in the closed exterior and is not
       strictly inside another hole — that is: the line string and the polygon (exterior minus
       the interiors of the holes) share a rational point. *)
From GJ Require Import Base KernelSpec Series SeriesSpec Ring RingSpec IntersectsProofs PipProofs
  PairProofs Jordan JordanQ JordanRing Convex.
Import ListNotations.
Open Scope Z_scope.

Definition hole_ok (h : list pt) : Prop :=
  ring_convex (Rg h) = false \/
  (ring_convex (Rg h) = true /\ exists sigma, (sigma = 1 \/ sigma = -1) /\ hpc sigma h /\ no_zero_edges h).

Lemma rcs_strict_ok (h : list pt) (A B : pt) : hole_ok h ->
  (rcs (Rg h) (A, B) false = true <-> all_strictly_inside h A B).
Proof.
  intros [Hf|(Ht & sigma & Hs & Hc & Hz)].
  - apply ring_contains_segment_strict_pointset. exact Hf.
  - apply (ring_contains_segment_convex_pointset sigma); assumption.
Qed.

Definition line_strictly_inside (h qs : list pt) : Prop :=
  forall sg, In sg (path_segs qs) -> all_strictly_inside h (fst sg) (snd sg).

Lemma strictly_in_in_bbox (h : list pt) (p : pt) :
  strictly_in_ringb (ring_edges h) p = true -> rect_contains_point (bbox_spec h) p = true.
Proof.
  intros H. apply in_ringb_in_bbox. rewrite strictly_in_ringb_alt in H. apply andb_true_iff in H. apply H.
Qed.

(* the body of ringContainsRing for a hole and a line, strict *)
Lemma rcr_core_line_strict (h qs : list pt) : hole_ok h -> (2 <= length qs)%nat ->
  (rcr_core (Rg h) (Lr qs) false = true <-> (3 <= length h)%nat /\ line_strictly_inside h qs).
Proof.
  intros Hok H2. unfold rcr_core. rewrite Rg_empty, Lr_empty, Lr_pts, Lr_segs, (Lr_rect qs H2).
  rewrite (proj2 (Nat.ltb_ge _ _) H2), orb_false_r.
  destruct (Nat.ltb_spec (length h) 3) as [S3|H3].
  { split; [discriminate|]. intros [? _]. lia. }
  rewrite (Rg_rect h H3).
  assert (Hne : qs <> []) by (intros ->; cbn in H2; lia).
  (* when every vertex of the line is strictly inside, the boxes nest *)
  assert (Hbox : (forall q, In q qs -> strictly_in_ringb (ring_edges h) q = true) ->
                 rect_contains_rect (bbox_spec h) (bbox_spec qs) = true).
  { intros Hall. apply bbox_in_rect_iff; [exact Hne|]. intros p Hp.
    rewrite <- rect_contains_point_spec. apply strictly_in_in_bbox, Hall, Hp. }
  assert (Hs : forall p, rcp_hit (Rg h) p false = strictly_in_ringb (ring_edges h) p) by (intros p; apply rcp_hit_strict).
  split.
  - destruct (rect_contains_rect (bbox_spec h) (bbox_spec qs)); cbn [negb]; [|discriminate].
    intros H. split; [exact H3|]. intros [a b] Hin. cbn [fst snd].
    destruct (ring_convex (Rg h)) eqn:Ecv.
    + rewrite forallb_forall in H. destruct (path_segs_endpoints qs a b Hin) as [Ha Hb].
      pose proof (H a Ha) as SA. pose proof (H b Hb) as SB. rewrite Hs in SA, SB.
      destruct Hok as [Hf|(_ & sigma & Hsg & Hc & Hz)]; [congruence|].
      apply (convex_segment_strictly_inside sigma); assumption.
    + rewrite forallb_forall in H. apply (rcs_strict_ok h a b Hok). apply (H (a, b) Hin).
  - intros [_ Hall].
    assert (Hv : forall q, In q qs -> strictly_in_ringb (ring_edges h) q = true).
    { intros q Hq. destruct (in_path_endpoint qs q Hq H2) as ([a b] & Hin & Hab).
      destruct (all_strictly_inside_ends h a b (Hall (a, b) Hin)) as [SA SB]. cbn [fst snd] in Hab.
      destruct Hab as [<-|<-]; assumption. }
    rewrite (Hbox Hv). cbn [negb].
    destruct (ring_convex (Rg h)) eqn:Ecv.
    + apply forallb_forall. intros q Hq. rewrite Hs. apply Hv. exact Hq.
    + apply forallb_forall. intros [a b] Hin. apply (rcs_strict_ok h a b Hok). apply (Hall (a, b) Hin).
Qed.

Lemma line_strictly_inside_nonempty (h qs : list pt) : (2 <= length qs)%nat ->
  line_strictly_inside h qs -> (3 <= length h)%nat.
Proof.
  intros H2 Hall. destruct qs as [|a [|b r]]; cbn in H2; try lia.
  destruct (all_strictly_inside_ends h a b (Hall (a, b) (or_introl eq_refl))) as [SA _].
  destruct (le_lt_dec 3 (length h)) as [?|S]; [assumption|exfalso].
  rewrite (ring_edges_short h S) in SA. discriminate SA.
Qed.

(* Poly.IntersectsLine with holes, given what ringContainsRing decides for each hole and the line *)
Lemma poly_intersects_line_holes_gen (e : list pt) (hs : list (list pt)) (qs : list pt) :
  ((2 <= length qs)%nat -> forall h, In h hs ->
     (ring_contains_ring (Rg h) (Lr qs) false = true <-> (3 <= length h)%nat /\ line_strictly_inside h qs)) ->
  (poly_intersects_line (Pg e hs) (Lr qs) = true <->
   ((3 <= length e)%nat /\ (2 <= length qs)%nat /\
    exists sg, In sg (path_segs qs) /\ shares_point e (fst sg) (snd sg)) /\
   forall h, In h hs -> ~ line_strictly_inside h qs).
Proof.
  intros Hrcr. unfold poly_intersects_line, Pg. cbn [exterior holes].
  pose proof (ring_intersects_line_pointset e qs) as EX.
  change (RS {| closed := true; pts := e |}) with (Rg e) in EX.
  change (RS {| closed := false; pts := qs |}) with (Lr qs) in EX.
  destruct (ring_intersects_line (Rg e) (Lr qs) true) eqn:Ei; cbn [negb].
  - destruct (proj1 EX eq_refl) as (H3 & H2 & Hsh). rewrite negb_true_iff. rewrite existsb_false_iff. split.
    + intros Hno. split; [split; [exact H3|split; [exact H2|exact Hsh]]|].
      intros h Hh Hin.
      assert (Hc : ring_contains_ring (Rg h) (Lr qs) false = true).
      { apply (Hrcr H2 h Hh). split; [|exact Hin].
        apply (line_strictly_inside_nonempty h qs H2 Hin). }
      rewrite (Hno (Rg h)) in Hc; [discriminate Hc|]. apply in_map. exact Hh.
    + intros [_ Hno] r Hr. apply in_map_iff in Hr. destruct Hr as (h & <- & Hh).
      destruct (ring_contains_ring (Rg h) (Lr qs) false) eqn:Hc; [exfalso|reflexivity].
      apply (Hrcr H2 h Hh) in Hc. apply (Hno h Hh). apply Hc.
  - split; [discriminate|]. intros [Hx _]. apply (proj2 EX) in Hx. discriminate Hx.
Qed.

Definition in_polyQ (e : list pt) (hs : list (list pt)) (k : Z) (P : pt) : Prop :=
  in_ringb (edges_at k e) P = true /\ forall h, In h hs -> strictly_in_ringb (edges_at k h) P = false.

Definition poly_shares_point (e : list pt) (hs : list (list pt)) (A B : pt) : Prop :=
  exists k P, 0 < k /\ on_seg (sc k A, sc k B) P /\ in_polyQ e hs k P.

(* every boundary point of a hole is in the closed exterior, and strictly inside no hole *)
Definition holes_valid (e : list pt) (hs : list (list pt)) : Prop :=
  forall h, In h hs -> forall k f S, 0 < k -> In f (edges_at k h) -> on_seg f S ->
    in_ringb (edges_at k e) S = true /\ forall h', In h' hs -> strictly_in_ringb (edges_at k h') S = false.

(* a segment that is not wholly strictly inside has a witness *)
Lemma not_strict_witness (h : list pt) (A B : pt) : hole_ok h ->
  rcs (Rg h) (A, B) false = false ->
  exists k P, 0 < k /\ on_seg (sc k A, sc k B) P /\ strictly_in_ringb (edges_at k h) P = false.
Proof.
  intros Hok Hr. unfold Rg in Hr. rewrite rcs_strict_unfold in Hr.
  destruct (strictly_in_ringb (ring_edges h) A) eqn:SA.
  2:{ exists 1, A. rewrite !sc_1, edges_at_1. split; [lia|]. split; [apply on_seg_left|exact SA]. }
  destruct (strictly_in_ringb (ring_edges h) B) eqn:SB.
  2:{ exists 1, B. rewrite !sc_1, edges_at_1. split; [lia|]. split; [apply on_seg_right|exact SB]. }
  (* both ends strictly inside: an edge meets the segment, in a boundary point *)
  cbn [andb] in Hr. apply orb_false_iff in Hr. destruct Hr as [_ Hr]. apply negb_false_iff, existsb_exists in Hr.
  destruct Hr as (f & Hf & Hm). apply seg_meetb_iff in Hm.
  destruct (meet_boundary_point h f A B Hf Hm) as (k & P & Hk & HP & Hb).
  exists k, P. split; [exact Hk|]. split; [exact HP|]. unfold strictly_in_ringb, edges_at. rewrite Hb. reflexivity.
Qed.

(* if no edge of the ring meets any segment of the line, all rational points of the line have the
   status of its first vertex *)
Lemma chain_status (h qs : list pt) :
  (forall f sg, In f (ring_edges h) -> In sg (path_segs qs) -> seg_meetb f sg = false) ->
  forall sg k P, In sg (path_segs qs) -> 0 < k -> on_seg (sc k (fst sg), sc k (snd sg)) P ->
    strictly_in_ringb (edges_at k h) P = parityb (ring_edges h) (hd pt0 qs).
Proof.
  intros Hno.
  assert (N : forall f sg, In f (ring_edges h) -> In sg (path_segs qs) -> ~ seg_meet f sg).
  { intros f sg Hf Hsg Hm. apply seg_meetb_iff in Hm. rewrite (Hno f sg Hf Hsg) in Hm. discriminate Hm. }
  (* vertices: same parity along the chain *)
  assert (Hv : forall x, In x qs -> parityb (ring_edges h) x = parityb (ring_edges h) (hd pt0 qs)).
  { apply (path_const (parityb (ring_edges h)) qs). intros u v Huv.
    apply parity_constant_off_boundary. intros f Hf. apply (N f (u, v) Hf Huv). }
  (* rational points: off the boundary, with the parity of the first end of their segment *)
  intros [a b] k P Hin Hk HP. cbn [fst snd] in HP.
  destruct (path_segs_endpoints qs a b Hin) as [Ha _].
  destruct (nomeet_status h a b k P Hk (fun f Hf => N f (a, b) Hf Hin) HP) as [Hb Hp].
  unfold strictly_in_ringb, edges_at. rewrite Hb, Hp. apply (Hv a Ha).
Qed.

(* for a valid polygon the point-set statement follows from the statement about the holes, whatever makes that hold *)
Lemma poly_intersects_line_pointset_gen (e : list pt) (hs : list (list pt)) (qs : list pt) :
  holes_valid e hs ->
  (poly_intersects_line (Pg e hs) (Lr qs) = true <->
   ((3 <= length e)%nat /\ (2 <= length qs)%nat /\
    exists sg, In sg (path_segs qs) /\ shares_point e (fst sg) (snd sg)) /\
   forall h, In h hs -> ~ line_strictly_inside h qs) ->
  (poly_intersects_line (Pg e hs) (Lr qs) = true <->
   (3 <= length e)%nat /\ (2 <= length qs)%nat /\
   exists sg, In sg (path_segs qs) /\ poly_shares_point e hs (fst sg) (snd sg)).
Proof.
  intros Hval ->. split.
  - intros [(H3 & H2 & [a b] & Hin & k0 & P0 & Hk0 & On0 & In0) Hno]. cbn [fst snd] in On0.
    split; [exact H3|]. split; [exact H2|].
    (* is P0 strictly inside some hole? *)
    destruct (existsb (fun h => strictly_in_ringb (edges_at k0 h) P0) hs) eqn:Dec.
    2:{ rewrite existsb_false_iff in Dec. exists (a, b). split; [exact Hin|].
        exists k0, P0. split; [exact Hk0|]. split; [exact On0|]. split; [exact In0|exact Dec]. }
    apply existsb_exists in Dec. destruct Dec as (h1 & Hh1 & S1).
    (* P0 is strictly inside h1, but the line is not wholly inside h1 *)
    (* some edge of h1 meets some segment of the line: otherwise the whole line would be strictly inside *)
    assert (Hmeet : exists f sg, In f (ring_edges h1) /\ In sg (path_segs qs) /\ seg_meetb f sg = true).
    { destruct (existsb (fun f => existsb (fun sg => seg_meetb f sg) (path_segs qs)) (ring_edges h1)) eqn:Ex.
      - apply existsb_exists in Ex. destruct Ex as (f & Hf & Ex). apply existsb_exists in Ex.
        destruct Ex as (sg & Hsg & Hm). exists f, sg. auto.
      - exfalso. apply (Hno h1 Hh1).
        assert (Hnm : forall f sg, In f (ring_edges h1) -> In sg (path_segs qs) -> seg_meetb f sg = false).
        { intros f sg Hf Hsg. rewrite existsb_false_iff in Ex. pose proof (Ex f Hf) as Ex'.
          rewrite existsb_false_iff in Ex'. apply Ex'. exact Hsg. }
        pose proof (chain_status h1 qs Hnm) as CS.
        assert (Par : parityb (ring_edges h1) (hd pt0 qs) = true).
        { rewrite <- (CS (a, b) k0 P0 Hin Hk0 On0). exact S1. }
        intros sg Hsg k P Hk HP. fold (edges_at k h1). rewrite (CS sg k P Hsg Hk HP). exact Par. }
    destruct Hmeet as (f & [a2 b2] & Hf & Hsg & Hm). apply seg_meetb_iff in Hm.
    destruct (meet_boundary_point h1 f a2 b2 Hf Hm) as (k & T & Hk & On2 & Hb).
    apply on_boundaryb_iff in Hb. destruct Hb as (f' & Hf' & On1).
    exists (a2, b2). split; [exact Hsg|]. exists k, T. split; [exact Hk|]. split; [exact On2|].
    exact (Hval h1 Hh1 k f' T Hk Hf' On1).
  - intros (H3 & H2 & [a b] & Hin & k & P & Hk & On & InE & Free). cbn [fst snd] in On. split.
    + split; [exact H3|]. split; [exact H2|]. exists (a, b). split; [exact Hin|].
      exists k, P. split; [exact Hk|]. split; [exact On|exact InE].
    + intros h Hh Hall. pose proof (Hall (a, b) Hin k P Hk On) as S. fold (edges_at k h) in S. rewrite (Free h Hh) in S. discriminate S.
Qed.

