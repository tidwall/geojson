(* KernelProofs.v — C19: consequences of the raycast characterisation. *)
From GJ Require Import Base Kernel KernelSpec RaycastProofs.

Lemma cross_swap a b p : cross b a p = - cross a b p.
Proof. unfold cross. ring. Qed.

Lemma on_seg_swap a b p : on_seg (a, b) p <-> on_seg (b, a) p.
Proof.
  unfold on_seg. rewrite (cross_swap a b p).
  rewrite (Z.min_comm (px b)), (Z.max_comm (px b)), (Z.min_comm (py b)), (Z.max_comm (py b)).
  split; intros (H & ? & ?); repeat split; try tauto; lia.
Qed.

Lemma crosses_swap a b p : crosses (a, b) p <-> crosses (b, a) p.
Proof. unfold crosses. rewrite (cross_swap a b p). split; intros [[? ?]|[? ?]]; [right|left|right|left]; split; lia. Qed.

Lemma bool_eq_iff (b c : bool) : (b = true <-> c = true) -> b = c.
Proof. apply Bool.eq_true_iff_eq. Qed.

Theorem raycast_sym a b p : raycast (a, b) p = raycast (b, a) p.
Proof.
  rewrite (surjective_pairing (raycast (a, b) p)), (surjective_pairing (raycast (b, a) p)).
  f_equal; apply bool_eq_iff.
  - change (raycast_in (a, b) p = true <-> raycast_in (b, a) p = true).
    rewrite !raycast_in_iff, on_seg_swap, crosses_swap. reflexivity.
  - change (raycast_on (a, b) p = true <-> raycast_on (b, a) p = true).
    rewrite !raycast_on_iff. apply on_seg_swap.
Qed.

Theorem raycast_not_both s p : ~ (raycast_in s p = true /\ raycast_on s p = true).
Proof. rewrite raycast_in_iff, raycast_on_iff. tauto. Qed.

Lemma on_segb_iff s p : on_segb s p = true <-> on_seg s p.
Proof.
  destruct s as [a b]. unfold on_segb, on_seg.
  rewrite !andb_true_iff, Z.eqb_eq, !Z.leb_le. tauto.
Qed.

Lemma crossesb_iff s p : crossesb s p = true <-> crosses s p.
Proof.
  destruct s as [a b]. unfold crossesb, crosses.
  rewrite orb_true_iff, !andb_true_iff, !Z.leb_le, !Z.ltb_lt. tauto.
Qed.

Theorem raycast_eq_spec s p :
  raycast s p = (crossesb s p && negb (on_segb s p), on_segb s p).
Proof.
  rewrite (surjective_pairing (raycast s p)). f_equal; apply bool_eq_iff.
  - change (raycast_in s p = true <-> crossesb s p && negb (on_segb s p) = true). rewrite raycast_in_iff, andb_true_iff, negb_true_iff.
    rewrite crossesb_iff. rewrite <- on_segb_iff. destruct (on_segb s p); intuition congruence.
  - change (raycast_on s p = true <-> on_segb s p = true). rewrite raycast_on_iff, on_segb_iff. reflexivity.
Qed.

Lemma raycast_on_eq s p : raycast_on s p = on_segb s p.
Proof. unfold raycast_on. rewrite raycast_eq_spec. reflexivity. Qed.
