(* JsonGrammar.v — property C17: "the bytes are one valid JSON object".
   The RFC 8259 grammar without insignificant whitespace, as a relation between
   texts and trees; lexical predicates for number and string tokens; and the
   theorem that the minified print of any lexically well-formed tree belongs to
   the grammar.  Combined with EmitProofs.emit_is_print: the writers' bytes are a
   JSON object text. *)
From GJ Require Import Base JsonConst Json EmitProofs.
Open Scope Z_scope.

Definition is_digit (c : Z) : bool := (48 <=? c) && (c <=? 57).

Fixpoint all_digits (l : list Z) : bool :=
  match l with [] => true | c :: r => is_digit c && all_digits r end.

(* digits (non-empty), then an optional fraction / exponent in [rest] *)
Fixpoint split_digits (l : list Z) : list Z * list Z :=
  match l with
  | c :: r => if is_digit c then let '(d, rest) := split_digits r in (c :: d, rest) else ([], l)
  | [] => ([], [])
  end.

Definition exp_ok (l : list Z) : bool :=      (* after 'e' / 'E' *)
  match l with
  | 43 :: r | 45 :: r => negb (match r with [] => true | _ => false end) && all_digits r
  | _ => negb (match l with [] => true | _ => false end) && all_digits l
  end.

Definition frac_exp_ok (l : list Z) : bool :=
  match l with
  | [] => true
  | 46 :: r =>
      let '(d, rest) := split_digits r in
      negb (match d with [] => true | _ => false end) &&
      match rest with
      | [] => true
      | 101 :: e | 69 :: e => exp_ok e
      | _ => false
      end
  | 101 :: e | 69 :: e => exp_ok e
  | _ => false
  end.

(* number = [ minus ] int [ frac ] [ exp ] ;  int = zero / ( digit1-9 *DIGIT ) *)
Definition num_lexeme (l : list Z) : bool :=
  let body := match l with 45 :: r => r | _ => l end in
  match body with
  | 48 :: rest => frac_exp_ok rest
  | c :: _ =>
      is_digit c &&
      let '(d, rest) := split_digits body in frac_exp_ok rest
  | [] => false
  end.

Definition is_hex (c : Z) : bool :=
  is_digit c || ((65 <=? c) && (c <=? 70)) || ((97 <=? c) && (c <=? 102)).

(* the characters between the quotes: no bare quote, backslash or control character; escapes well formed *)
Fixpoint str_body_fuel (fuel : nat) (l : list Z) : bool :=
  match fuel with
  | O => false
  | S f =>
      match l with
      | [] => true
      | 92 :: 117 :: a :: b :: c :: d :: r => is_hex a && is_hex b && is_hex c && is_hex d && str_body_fuel f r
      | 92 :: e :: r =>
          ((e =? 34) || (e =? 92) || (e =? 47) || (e =? 98) || (e =? 102) || (e =? 110) || (e =? 114) || (e =? 116))
          && str_body_fuel f r
      | c :: r => (32 <=? c) && negb (c =? 34) && negb (c =? 92) && (c <=? 255) && str_body_fuel f r
      end
  end.
Definition str_body (l : list Z) : bool := str_body_fuel (S (length l)) l.

(* the grammar (value / object / member / array, RFC 8259 §2-§7, no whitespace) *)
Inductive json_text : list Z -> jv -> Prop :=
| jt_null : json_text s_null JNull
| jt_true : json_text s_true JTrue
| jt_false : json_text s_false JFalse
| jt_num raw v : num_lexeme raw = true -> json_text raw (JNum raw v)
| jt_str raw dec : str_body raw = true -> json_text (34 :: raw ++ [34]) (JStr raw dec)
| jt_arr ts vs : json_texts ts vs -> json_text (91 :: join_comma ts ++ [93]) (JArr vs)
| jt_obj ts ms : json_members ts ms -> json_text (123 :: join_comma ts ++ [125]) (JObj ms)
with json_texts : list (list Z) -> list jv -> Prop :=
| jts_nil : json_texts [] []
| jts_cons t v ts vs : json_text t v -> json_texts ts vs -> json_texts (t :: ts) (v :: vs)
with json_members : list (list Z) -> list (jkey * jv) -> Prop :=
| jms_nil : json_members [] []
| jms_cons t kraw kdec v ts ms :
    str_body kraw = true -> json_text t v -> json_members ts ms ->
    json_members ((34 :: kraw ++ 34 :: 58 :: t) :: ts) (((kraw, kdec), v) :: ms).

(* lexically well-formed trees: every number and string token is a JSON token *)
Fixpoint lex_ok (v : jv) : bool :=
  match v with
  | JNull | JTrue | JFalse => true
  | JNum raw _ => num_lexeme raw
  | JStr raw _ => str_body raw
  | JArr l => forallb lex_ok l
  | JObj ms => forallb (fun kv => str_body (fst (fst kv)) && lex_ok (snd kv)) ms
  end.

(* induction over document trees: the items of an array and the member values of an object come with the
   hypothesis, as a Forall *)
Section JvInd.
Variable P : jv -> Prop.
Hypothesis Hn : P JNull. Hypothesis Ht : P JTrue. Hypothesis Hf : P JFalse.
Hypothesis Hnum : forall r v, P (JNum r v).
Hypothesis Hstr : forall r d, P (JStr r d).
Hypothesis Harr : forall l, Forall P l -> P (JArr l).
Hypothesis Hobj : forall ms, Forall (fun kv => P (snd kv)) ms -> P (JObj ms).
Fixpoint jv_ind' (v : jv) : P v :=
  match v with
  | JNull => Hn | JTrue => Ht | JFalse => Hf
  | JNum r x => Hnum r x
  | JStr r d => Hstr r d
  | JArr l => Harr l ((fix go (l : list jv) : Forall P l :=
                         match l with [] => Forall_nil P | x :: r => Forall_cons x (jv_ind' x) (go r) end) l)
  | JObj ms => Hobj ms ((fix go (l : list (jkey * jv)) : Forall (fun kv => P (snd kv)) l :=
                           match l with [] => Forall_nil _ | x :: r => Forall_cons x (jv_ind' (snd x)) (go r) end) ms)
  end.
End JvInd.

(* C17: the minified print of a lexically well-formed tree is a text of the grammar, for that tree *)
Theorem print_min_is_json (v : jv) : lex_ok v = true -> json_text (print_min v) v.
Proof.
  induction v as [| | |r x|r d|l IH|ms IH] using jv_ind'; intros H; cbn [lex_ok] in H; cbn [print_min].
  - constructor. - constructor. - constructor.
  - constructor. exact H.
  - constructor. exact H.
  - apply jt_arr. induction l as [|x l IHl]; cbn [map]; [constructor|].
    cbn [forallb] in H. apply andb_true_iff in H. destruct H as [Hx Hl]. inversion IH; subst.
    constructor; [auto|apply IHl; assumption].
  - apply jt_obj. induction ms as [|[[kr kd] x] ms IHm]; cbn [map]; [constructor|].
    cbn [forallb fst snd] in H. rewrite !andb_true_iff in H. destruct H as [[Hk Hx] Hm]. inversion IH; subst.
    cbn [fst snd]. constructor; [exact Hk|auto|apply IHm; assumption].
Qed.

(* the writers' trees are lexically well formed *)
Section Emit.
Variable fmt : Z -> list Z.
Hypothesis fmt_number : forall k, num_lexeme (fmt k) = true.   (* strconv prints a JSON number for a finite value *)

(* no out-of-range read of the z/m value array: every ordinate that is printed exists *)
Definition values_ok (ex : option extra) (npoints : nat) : Prop :=
  match ex with
  | Some e => (dims e * npoints <= length (values e))%nat /\ Forall (fun f => f <> FBad) (values e)
  | None => True
  end.

Definition fpt_ok (p : fpt) : Prop := fst p <> FBad /\ snd p <> FBad.

Definition members_lex (ex : option extra) : Prop :=
  match ex with
  | Some e => match members e with Some ms => lex_ok (JObj ms) = true | None => True end
  | None => True
  end.

Lemma num_jv_lex (f : fnum) : f <> FBad -> lex_ok (num_jv fmt f) = true.
Proof. destruct f; cbn [num_jv lex_ok]; intros H; [apply fmt_number|reflexivity|congruence]. Qed.

Lemma ex_value_ok (ex : option extra) (n j : nat) :
  values_ok ex n -> (j < ex_dims ex * n)%nat -> ex_value ex j <> FBad.
Proof.
  destruct ex as [e|]; cbn [values_ok ex_dims ex_value]; [|lia].
  intros [Hlen Hall] Hj. rewrite Forall_forall in Hall. apply Hall. apply nth_In. lia.
Qed.

Lemma point_jv_lex (p : fpt) (ex : option extra) (idx n : nat) :
  fpt_ok p -> values_ok ex n -> (idx < n)%nat -> lex_ok (point_jv fmt p ex idx) = true.
Proof.
  intros [Hx Hy] Hv Hi. unfold point_jv. cbv zeta. cbn [lex_ok forallb].
  rewrite (num_jv_lex _ Hx), (num_jv_lex _ Hy). cbn [andb].
  apply forallb_forall. intros v Hin. apply in_map_iff in Hin. destruct Hin as (i & <- & Hi').
  apply in_seq in Hi'. apply num_jv_lex. apply (ex_value_ok ex n); [exact Hv|]. clear - Hi Hi'. nia.
Qed.

Lemma series_jv_lex (ps : list fpt) (ex : option extra) (pidx n : nat) :
  Forall fpt_ok ps -> values_ok ex n -> (pidx + length ps <= n)%nat -> lex_ok (series_jv fmt ps ex pidx) = true.
Proof.
  intros Hps Hv Hn. unfold series_jv. cbn [lex_ok]. apply forallb_forall. intros v Hin.
  apply in_map_iff in Hin. destruct Hin as ([p i] & <- & Hpi). cbn [fst snd].
  assert (Hp : In p ps) by (eapply in_combine_l; exact Hpi).
  assert (Hi : In i (seq pidx (length ps))) by (eapply in_combine_r; exact Hpi).
  apply in_seq in Hi. rewrite Forall_forall in Hps. apply (point_jv_lex p ex i n); [apply Hps; exact Hp|exact Hv|lia].
Qed.

End Emit.

Print Assumptions print_min_is_json.
Print Assumptions series_jv_lex.
