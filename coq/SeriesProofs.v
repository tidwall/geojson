(* SeriesProofs.v — proofs relating the Series.v model (processPoints,
   NumSegments, SegmentAt) to the independent specifications of SeriesSpec.v.
   Properties C18 (segment rule, convexity, clockwise, start/closing vertex
   independence) and C11 at series level (tight bounding box).
   No axioms, no admits. *)
From GJ Require Import Base Series SeriesSpec.
Open Scope Z_scope.

Lemma mod_eq (a b q r : nat) : (r < b)%nat -> (a = b * q + r)%nat -> (a mod b = r)%nat.
Proof. intros Hr Ha. symmetry. eapply Nat.mod_unique; eauto. Qed.

Lemma last_nthp (l : list pt) : last l pt0 = nthp l (length l - 1).
Proof.
  unfold nthp. induction l as [|a l IH]; [reflexivity|].
  destruct l as [|b l]; [reflexivity|].
  change (last (a :: b :: l) pt0) with (last (b :: l) pt0). rewrite IH.
  cbn [length]. replace (S (S (length l)) - 1)%nat with (S (S (length l) - 1)) by lia.
  reflexivity.
Qed.

Lemma hd_nthp (l : list pt) : hd pt0 l = nthp l 0.
Proof. destruct l; reflexivity. Qed.

Lemma removelast_len (l : list pt) : length (removelast l) = (length l - 1)%nat.
Proof. rewrite removelast_firstn_len, firstn_length. lia. Qed.

Lemma nth_removelast (l : list pt) : forall i, (i < length l - 1)%nat ->
  nth i (removelast l) pt0 = nth i l pt0.
Proof.
  intros i Hi. destruct l as [|a l']; [reflexivity|].
  rewrite <- (app_nth1 _ [last (a :: l') pt0]) by (rewrite removelast_len; exact Hi).
  rewrite <- app_removelast_last by discriminate. reflexivity.
Qed.

Lemma path_segs_nthp (ps : list pt) :
  path_segs ps = map (fun i => (nthp ps i, nthp ps (S i))) (seq 0 (length ps - 1)).
Proof.
  induction ps as [|a r IH]; [reflexivity|].
  destruct r as [|b r]; [reflexivity|].
  change (path_segs (a :: b :: r)) with ((a, b) :: path_segs (b :: r)).
  rewrite IH.
  replace (length (a :: b :: r) - 1)%nat with (S (length (b :: r) - 1)) by (cbn [length]; lia).
  cbn [seq map]. f_equal.
  rewrite <- seq_shift, map_map. reflexivity.
Qed.

Lemma path_segs_length (ps : list pt) : length (path_segs ps) = (length ps - 1)%nat.
Proof. rewrite path_segs_nthp, map_length, seq_length. reflexivity. Qed.

Lemma segments_closed_open_part (s : series) (k : nat) :
  (k <= npoints s - 1)%nat ->
  map (segment_at s) (seq 0 k) =
  map (fun i => (nthp (pts s) i, nthp (pts s) (S i))) (seq 0 k).
Proof.
  intros Hk. apply map_ext_in. intros i Hi. apply in_seq in Hi.
  unfold segment_at.
  destruct (Nat.eqb_spec i (npoints s - 1)) as [E|E]; [lia|].
  rewrite Nat.add_1_r. reflexivity.
Qed.

Theorem segments_eq_spec (s : series) : segments s = segments_spec s.
Proof.
  unfold segments, segments_spec, num_segments.
  rewrite last_nthp, hd_nthp. fold (npoints s).
  destruct (closed s).
  - destruct (Nat.ltb_spec (npoints s) 3) as [H3|H3]; [reflexivity|].
    destruct (pt_eqb (nthp (pts s) (npoints s - 1)) (nthp (pts s) 0)).
    + rewrite segments_closed_open_part by lia. rewrite path_segs_nthp. reflexivity.
    + replace (npoints s) with (S (npoints s - 1)) at 1 by lia.
      rewrite seq_S, map_app. rewrite segments_closed_open_part by lia.
      rewrite path_segs_nthp. fold (npoints s). f_equal.
      cbn [map Nat.add]. unfold segment_at. rewrite Nat.eqb_refl. reflexivity.
  - destruct (Nat.ltb_spec (npoints s) 2) as [H2|H2].
    + rewrite path_segs_nthp. fold (npoints s).
      replace (npoints s - 1)%nat with 0%nat by lia. reflexivity.
    + rewrite segments_closed_open_part by lia. rewrite path_segs_nthp. reflexivity.
Qed.

Theorem num_segments_spec (s : series) : num_segments s = length (segments_spec s).
Proof.
  rewrite <- segments_eq_spec. unfold segments. rewrite map_length, seq_length. reflexivity.
Qed.

Lemma num_segments_le (s : series) : (num_segments s <= npoints s)%nat.
Proof.
  unfold num_segments. destruct (closed s).
  - destruct (Nat.ltb_spec (npoints s) 3); [lia|].
    destruct (pt_eqb _ _); lia.
  - destruct (Nat.ltb_spec (npoints s) 2); lia.
Qed.

(* SegmentAt never indexes out of range: index i itself ... *)
Theorem segment_at_in_range (s : series) (i : nat) :
  (i < num_segments s)%nat -> (i < npoints s)%nat.
Proof. pose proof (num_segments_le s). lia. Qed.

(* ... and index i+1, read when i is not the last point (index 0 is then in
   range as well, since i < npoints s). *)
Theorem segment_at_in_range_succ (s : series) (i : nat) :
  (i < num_segments s)%nat -> i <> (npoints s - 1)%nat -> (i + 1 < npoints s)%nat.
Proof. pose proof (num_segments_le s). lia. Qed.

Theorem segment_at_in_range_zero (s : series) (i : nat) :
  (i < num_segments s)%nat -> (0 < npoints s)%nat.
Proof. pose proof (num_segments_le s). lia. Qed.

Theorem open_series_segments (ps : list pt) :
  length (segments_spec {| closed := false; pts := ps |}) = (length ps - 1)%nat.
Proof. unfold segments_spec. cbn [closed pts]. apply path_segs_length. Qed.

Theorem closed_series_segments (ps : list pt) :
  (3 <= length ps)%nat ->
  length (segments_spec {| closed := true; pts := ps |}) =
  if pt_eqb (last ps pt0) (hd pt0 ps) then (length ps - 1)%nat else length ps.
Proof.
  intros H3. unfold segments_spec. cbn [closed pts].
  destruct (Nat.ltb_spec (length ps) 3) as [H|H]; [lia|].
  destruct (pt_eqb (last ps pt0) (hd pt0 ps)).
  - apply path_segs_length.
  - rewrite app_length, path_segs_length. cbn [length]. lia.
Qed.

Lemma empty_series_segments (s : series) : series_empty s = true -> segments_spec s = [].
Proof.
  destruct s as [c ps]. unfold series_empty, segments_spec, npoints. cbn [closed pts].
  destruct c; cbn [andb orb].
  - destruct (Nat.ltb_spec (length ps) 3) as [L|L]; [reflexivity|].
    destruct (Nat.ltb_spec (length ps) 2); [lia|discriminate].
  - destruct ps as [|p [|p' l]]; [reflexivity|reflexivity|discriminate].
Qed.

(* one axis of Rect inflation *)
Lemma axis_minmax (a c v : Z) :
  a <= c ->
  (if v <? a then (v, c) else if c <? v then (a, v) else (a, c)) = (Z.min a v, Z.max c v).
Proof. intros H. destruct (Z.ltb_spec v a), (Z.ltb_spec c v); f_equal; lia. Qed.

Lemma inflate_minmax (a b c d : Z) (p : pt) :
  a <= c -> b <= d ->
  inflate ((a, b), (c, d)) p =
  ((Z.min a (px p), Z.min b (py p)), (Z.max c (px p), Z.max d (py p))).
Proof.
  intros Hx Hy. unfold inflate.
  rewrite (axis_minmax a c (px p) Hx), (axis_minmax b d (py p) Hy). reflexivity.
Qed.

Lemma fold_inflate (r : list pt) : forall a b c d, a <= c -> b <= d ->
  fold_left inflate r ((a, b), (c, d)) =
  ((min_list a (map px r), min_list b (map py r)),
   (max_list c (map px r), max_list d (map py r))).
Proof.
  unfold min_list, max_list.
  induction r as [|p r IH]; intros a b c d Hx Hy; [reflexivity|].
  cbn [fold_left map]. rewrite inflate_minmax by assumption.
  apply IH; lia.
Qed.

Theorem points_rect_tight (ps : list pt) : points_rect ps = bbox_spec ps.
Proof.
  destruct ps as [|p r]; [reflexivity|].
  unfold points_rect, bbox_spec. destruct p as [x y].
  rewrite fold_inflate by lia. reflexivity.
Qed.

(* A fold that selects one of its two arguments at each step ([min_list] and
   [max_list] alike) returns the start value or a member of the list; if the
   selected value is below both arguments in some order, the result is below
   the start value and every member. *)
Lemma fold_sel_in (sel : Z -> Z -> Z) (sel_dec : forall a b, {sel a b = a} + {sel a b = b})
  (l : list Z) : forall d, fold_left sel l d = d \/ In (fold_left sel l d) l.
Proof.
  induction l as [|a l IH]; intros d; cbn [fold_left]; [left; reflexivity|].
  destruct (IH (sel d a)) as [H|H]; [|right; right; assumption].
  rewrite H. destruct (sel_dec d a) as [E|E]; rewrite E; [left|right; left]; reflexivity.
Qed.

Lemma fold_sel_below (sel : Z -> Z -> Z) (le : Z -> Z -> Prop)
  (le_refl : forall a, le a a) (le_trans : forall a b c, le a b -> le b c -> le a c)
  (sel_l : forall a b, le (sel a b) a) (sel_r : forall a b, le (sel a b) b)
  (l : list Z) : forall d x, In x (d :: l) -> le (fold_left sel l d) x.
Proof.
  induction l as [|a l IH]; intros d x Hx; cbn [fold_left].
  - destruct Hx as [<-|[]]. apply le_refl.
  - destruct Hx as [<-|[<-|Hx]].
    + apply (le_trans _ (sel d a)); [apply IH; left; reflexivity|apply sel_l].
    + apply (le_trans _ (sel d a)); [apply IH; left; reflexivity|apply sel_r].
    + apply IH. right; exact Hx.
Qed.

Lemma axis_tight (f : pt -> Z) (q : pt) (l : list pt) (p : pt) :
  In p (q :: l) -> min_list (f q) (map f l) <= f p <= max_list (f q) (map f l).
Proof.
  intros Hp. apply (in_map f) in Hp. split.
  - exact (fold_sel_below Z.min Z.le Z.le_refl Z.le_trans Z.le_min_l Z.le_min_r _ _ _ Hp).
  - exact (fold_sel_below Z.max (fun a b => b <= a) Z.le_refl (fun a b c H1 H2 => Z.le_trans c b a H2 H1)
             Z.le_max_l Z.le_max_r _ _ _ Hp).
Qed.

(* the box contains every point; that no side can move inwards is [bbox_spec_attained] *)
Theorem bbox_spec_tight (ps : list pt) (p : pt) :
  In p ps ->
  let r := bbox_spec ps in
  px (fst r) <= px p <= px (snd r) /\ py (fst r) <= py p <= py (snd r).
Proof.
  intros Hin. destruct ps as [|q l]; [destruct Hin|].
  exact (conj (axis_tight px q l p Hin) (axis_tight py q l p Hin)).
Qed.

Lemma attain (sel : Z -> Z -> Z) (sel_dec : forall a b, {sel a b = a} + {sel a b = b})
  (f : pt -> Z) (q : pt) (l : list pt) :
  exists p, In p (q :: l) /\ f p = fold_left sel (map f l) (f q).
Proof.
  destruct (fold_sel_in sel sel_dec (map f l) (f q)) as [H|H].
  - exists q. split; [left; reflexivity|]. symmetry; assumption.
  - apply in_map_iff in H. destruct H as [p [E Hp]]. exists p. split; [right; assumption|assumption].
Qed.

Theorem bbox_spec_attained (ps : list pt) :
  ps <> [] ->
  let r := bbox_spec ps in
  exists p1 p2 p3 p4,
    In p1 ps /\ In p2 ps /\ In p3 ps /\ In p4 ps /\
    px p1 = px (fst r) /\ py p2 = py (fst r) /\ px p3 = px (snd r) /\ py p4 = py (snd r).
Proof.
  intros Hne. destruct ps as [|q l]; [congruence|].
  cbn [bbox_spec]. cbv zeta.
  destruct (attain Z.min Z.min_dec px q l) as [p1 [I1 E1]].
  destruct (attain Z.min Z.min_dec py q l) as [p2 [I2 E2]].
  destruct (attain Z.max Z.max_dec px q l) as [p3 [I3 E3]].
  destruct (attain Z.max Z.max_dec py q l) as [p4 [I4 E4]].
  exists p1, p2, p3, p4.
  repeat split; assumption.
Qed.

Theorem series_rect_spec (s : series) :
  series_empty s = false -> series_rect s = bbox_spec (pts s).
Proof.
  unfold series_empty, series_rect, process_points, npoints. intros ->.
  cbn [fst snd]. apply points_rect_tight.
Qed.

(* refutation recorded for the un-repaired (pinned) code *)

Theorem convex_seam_pinned_refuted :
  exists ps, (3 <= length ps)%nat /\
             fst (fst (process_points_pinned ps true)) = true /\
             convex_specb (ring_vertices ps) = false.
Proof.
  exists [(0,-1); (5,-4); (8,2); (-8,3); (0,-1)].
  split; [cbn; lia|]. split; vm_compute; reflexivity.
Qed.

Lemma existsb_sat {A} (f : A -> bool) (P : A -> Prop) (zs : list A) :
  (forall z, f z = true <-> P z) ->
  existsb f zs = true <-> exists z, In z zs /\ P z.
Proof.
  intros H. rewrite existsb_exists.
  split; intros [z [I Hz]]; exists z; (split; [assumption|]); apply H; assumption.
Qed.

Theorem convex_specb_iff (vs : list pt) : convex_specb vs = true <-> convex_spec vs.
Proof.
  unfold convex_specb, convex_spec.
  rewrite negb_true_iff, <- not_true_iff_false, andb_true_iff,
    (existsb_sat _ _ _ (Z.ltb_lt 0)), (existsb_sat _ _ _ (fun z => Z.ltb_lt z 0)).
  split; intros H C; apply H.
  - destruct C as (i & j & Hi & Hj & Hp & Hn).
    split; [exists (turn vs i) | exists (turn vs j)]; (split; [apply in_map, in_seq; lia | assumption]).
  - destruct C as [(z1 & I1 & P1) (z2 & I2 & P2)].
    apply in_map_iff in I1, I2. destruct I1 as (i & <- & Hi), I2 as (j & <- & Hj).
    apply in_seq in Hi, Hj. exists i, j. repeat split; lia.
Qed.

Lemma ring_vertices_length (ps : list pt) :
  length (ring_vertices ps) = turn_count true ps.
Proof.
  unfold turn_count. cbn [andb].
  destruct ps as [|p r]; [reflexivity|].
  unfold ring_vertices. rewrite last_nthp.
  change (nthp (p :: r) 0) with p.
  destruct (pt_eqb (nthp (p :: r) (length (p :: r) - 1)) p).
  - apply removelast_len.
  - reflexivity.
Qed.

Lemma ring_vertices_nth (ps : list pt) (i : nat) :
  (i < turn_count true ps)%nat -> nth i (ring_vertices ps) pt0 = nthp ps i.
Proof.
  unfold turn_count. cbn [andb].
  destruct ps as [|p r]; [destruct i; reflexivity|].
  unfold ring_vertices. rewrite last_nthp.
  change (nthp (p :: r) 0) with p.
  destruct (pt_eqb (nthp (p :: r) (length (p :: r) - 1)) p); intros Hi.
  - apply nth_removelast; assumption.
  - reflexivity.
Qed.

Lemma turn_count_ge2 (ps : list pt) :
  (3 <= length ps)%nat -> (2 <= turn_count true ps)%nat.
Proof. unfold turn_count. destruct (_ && _); lia. Qed.

Lemma cyc_ring (ps : list pt) (j : nat) :
  (1 <= turn_count true ps)%nat ->
  cyc (ring_vertices ps) j = nthp ps (j mod turn_count true ps).
Proof.
  intros Hm. unfold cyc. rewrite ring_vertices_length.
  apply ring_vertices_nth. apply Nat.mod_upper_bound. lia.
Qed.

(* the cyclic triple at i; [turn vs i] is [zcross (ctri vs i)] *)
Definition ctri (vs : list pt) (i : nat) : pt * pt * pt :=
  (cyc vs i, cyc vs (i + 1), cyc vs (i + 2)).

(* the three branches of tri_at are the cyclic indices i, i+1, i+2 *)
Lemma tri_at_cyc (ps : list pt) (i : nat) :
  let m := turn_count true ps in
  (2 <= m)%nat -> (i < m)%nat -> tri_at ps m i = ctri (ring_vertices ps) i.
Proof.
  intros m Hm Hi. unfold ctri. rewrite !cyc_ring by (fold m; lia). fold m.
  unfold tri_at.
  rewrite (Nat.mod_small i m) by assumption.
  destruct (Nat.eqb_spec i (m - 1)) as [E1|E1].
  - rewrite (mod_eq (i + 1) m 1 0) by lia.
    rewrite (mod_eq (i + 2) m 1 1) by lia. reflexivity.
  - destruct (Nat.eqb_spec i (m - 2)) as [E2|E2].
    + rewrite (Nat.mod_small (i + 1) m) by lia.
      rewrite (mod_eq (i + 2) m 1 0) by lia. reflexivity.
    + rewrite (Nat.mod_small (i + 1) m) by lia.
      rewrite (Nat.mod_small (i + 2) m) by lia. reflexivity.
Qed.

(* the triples the Go loop visits are the cyclic triples of the ring's vertices *)
Lemma tris_cyc (ps : list pt) :
  (3 <= length ps)%nat ->
  map (tri_at ps (turn_count true ps)) (seq 0 (turn_count true ps)) =
  map (ctri (ring_vertices ps)) (seq 0 (length (ring_vertices ps))).
Proof.
  intros H3. pose proof (turn_count_ge2 ps H3) as Hm. rewrite ring_vertices_length.
  apply map_ext_in. intros i Hi. apply in_seq in Hi. apply tri_at_cyc; lia.
Qed.

Definition st_ok (st : bool * Z) : Prop := snd st = -1 \/ snd st = 0 \/ snd st = 1.

Lemma turn_step_ok (st : bool * Z) (z : Z) : st_ok st -> st_ok (turn_step st z).
Proof.
  destruct st as [c d]. unfold st_ok. cbn [snd]. intros Hd.
  unfold turn_step. destruct c; [cbn [snd]; assumption|].
  destruct Hd as [->|[->| ->]]; destruct z as [|p|p]; cbn; auto.
Qed.

(* What the automaton remembers: whether a positive turn has been seen, and
   whether a negative one (a concave state counts as both).  Each step adds
   the sign of its turn; the state is concave when both have been seen. *)
Definition seen_pos (st : bool * Z) : bool := fst st || (0 <? snd st).
Definition seen_neg (st : bool * Z) : bool := fst st || (snd st <? 0).

Lemma concave_seen (st : bool * Z) : fst st = seen_pos st && seen_neg st.
Proof. destruct st as [[|] [|p|p]]; reflexivity. Qed.

Lemma turn_step_seen (st : bool * Z) (z : Z) : st_ok st ->
  seen_pos (turn_step st z) = seen_pos st || (0 <? z) /\
  seen_neg (turn_step st z) = seen_neg st || (z <? 0).
Proof.
  destruct st as [[|] d]; unfold st_ok; cbn [snd]; intros Hd; [split; reflexivity|].
  destruct Hd as [->|[->| ->]]; destruct z as [|p|p]; split; reflexivity.
Qed.

Lemma turn_fold_seen (zs : list Z) : forall st, st_ok st ->
  seen_pos (fold_left turn_step zs st) = seen_pos st || existsb (fun z => 0 <? z) zs /\
  seen_neg (fold_left turn_step zs st) = seen_neg st || existsb (fun z => z <? 0) zs.
Proof.
  induction zs as [|z zs IH]; intros st Hst; cbn [fold_left existsb].
  - rewrite !orb_false_r. split; reflexivity.
  - destruct (IH _ (turn_step_ok st z Hst)) as [-> ->].
    destruct (turn_step_seen st z Hst) as [-> ->]. rewrite !orb_assoc. split; reflexivity.
Qed.

(* a concave state is absorbing; from a non-concave state with direction d the
   automaton ends concave iff a positive (or d>0) and a negative (or d<0)
   turn both occur *)
Lemma turn_fold (zs : list Z) (st : bool * Z) : st_ok st ->
  fst (fold_left turn_step zs st) =
  fst st || (((0 <? snd st) || existsb (fun z => 0 <? z) zs) &&
             ((snd st <? 0) || existsb (fun z => z <? 0) zs)).
Proof.
  intros Hst. rewrite concave_seen. destruct (turn_fold_seen zs st Hst) as [-> ->].
  unfold seen_pos, seen_neg. destruct (fst st); reflexivity.
Qed.

Lemma turn_fold_absorbing (zs : list Z) (d : Z) :
  fst (fold_left turn_step zs (true, d)) = true.
Proof. induction zs as [|z zs IH]; [reflexivity|]. cbn [fold_left]. exact IH. Qed.

(* the Prop form of the automaton invariant, as in the property text *)
Lemma turn_fold_iff (zs : list Z) (d : Z) :
  d = -1 \/ d = 0 \/ d = 1 ->
  (fst (fold_left turn_step zs (false, d)) = true <->
   ((0 < d \/ exists z, In z zs /\ 0 < z) /\ (d < 0 \/ exists z, In z zs /\ z < 0))).
Proof.
  intros Hd. rewrite turn_fold by exact Hd. cbn [fst snd orb].
  rewrite andb_true_iff, !orb_true_iff, (existsb_sat _ _ _ (Z.ltb_lt 0)),
    (existsb_sat _ _ _ (fun z => Z.ltb_lt z 0)), !Z.ltb_lt. reflexivity.
Qed.

Lemma process_points_closed (ps : list pt) :
  (3 <= length ps)%nat ->
  process_points ps true =
  let m := turn_count true ps in
  let tris := map (tri_at ps m) (seq 0 m) in
  (negb (fst (fold_left turn_step (map zcross tris) (false, 0))),
   points_rect ps,
   0 <? fold_left (fun acc t => acc + cw_term t) tris 0).
Proof.
  intros H3. unfold process_points.
  destruct (Nat.ltb_spec (length ps) 3); [lia|].
  destruct (Nat.ltb_spec (length ps) 2); [lia|].
  reflexivity.
Qed.

Theorem series_convex_spec (ps : list pt) :
  (3 <= length ps)%nat ->
  series_convex {| closed := true; pts := ps |} = convex_specb (ring_vertices ps).
Proof.
  intros H3. unfold series_convex. cbn [closed pts].
  rewrite process_points_closed by assumption. cbv zeta. cbn [fst].
  rewrite turn_fold by (unfold st_ok; cbn [snd]; auto).
  rewrite tris_cyc, map_map by assumption. reflexivity.
Qed.

Fixpoint zsum (l : list Z) : Z :=
  match l with [] => 0 | x :: r => x + zsum r end.

Lemma fold_acc_zsum {A : Type} (h : A -> Z) (l : list A) : forall a,
  fold_left (fun acc t => acc + h t) l a = a + zsum (map h l).
Proof.
  induction l as [|x l IH]; intros a; cbn [fold_left zsum map]; [lia|].
  rewrite IH. lia.
Qed.

Lemma zsum_app (l1 l2 : list Z) : zsum (l1 ++ l2) = zsum l1 + zsum l2.
Proof. induction l1 as [|x l IH]; cbn [app zsum]; [lia|]. rewrite IH. lia. Qed.

Lemma zsum_map_sub {A : Type} (f g : A -> Z) (l : list A) :
  zsum (map (fun i => f i - g i) l) = zsum (map f l) - zsum (map g l).
Proof. induction l as [|x l IH]; cbn [map zsum]; [lia|]. rewrite IH. lia. Qed.

Lemma zsum_telescope (g : nat -> Z) (n : nat) : forall s,
  zsum (map (fun i => g (S i) - g i) (seq s n)) = g (s + n)%nat - g s.
Proof.
  induction n as [|n IH]; intros s; cbn [seq map zsum].
  - rewrite Nat.add_0_r. lia.
  - rewrite IH. replace (S s + n)%nat with (s + S n)%nat by lia. lia.
Qed.

Definition sh_of (t : pt * pt * pt) : Z :=
  let '(a, b, _) := t in px a * py b - px b * py a.

Lemma shoelace2_zsum (vs : list pt) :
  shoelace2 vs = zsum (map (fun i => sh_of (ctri vs i)) (seq 0 (length vs))).
Proof. unfold shoelace2. rewrite (fold_acc_zsum (fun x => x)), map_id. unfold sh_of, ctri. lia. Qed.

Lemma cyc_wrap (vs : list pt) : cyc vs (length vs) = cyc vs 0.
Proof.
  unfold cyc. destruct vs as [|v vs]; [reflexivity|].
  rewrite Nat.mod_same, Nat.mod_0_l by (cbn [length]; lia). reflexivity.
Qed.

(* the trapezoid sum is minus the shoelace sum: the difference telescopes
   cyclically *)
Lemma cw_cyc_sum (vs : list pt) :
  zsum (map (fun i => cw_term (ctri vs i)) (seq 0 (length vs))) = - shoelace2 vs.
Proof.
  rewrite shoelace2_zsum.
  set (g := fun i => px (cyc vs i) * py (cyc vs i)).
  rewrite (map_ext _ (fun i => (g (S i) - g i) - sh_of (ctri vs i))).
  - rewrite (zsum_map_sub (fun i => g (S i) - g i) (fun i => sh_of (ctri vs i))).
    rewrite zsum_telescope. cbn [Nat.add]. unfold g. rewrite cyc_wrap. lia.
  - intros i. unfold cw_term, sh_of, ctri, g. rewrite Nat.add_1_r. ring.
Qed.

Theorem series_clockwise_spec (ps : list pt) :
  (3 <= length ps)%nat ->
  series_clockwise {| closed := true; pts := ps |} = clockwise_specb (ring_vertices ps).
Proof.
  intros H3. unfold series_clockwise. cbn [closed pts].
  rewrite process_points_closed by assumption. cbv zeta. cbn [snd].
  rewrite tris_cyc, fold_acc_zsum, map_map, cw_cyc_sum by assumption.
  unfold clockwise_specb.
  destruct (Z.ltb_spec 0 (0 + - shoelace2 (ring_vertices ps)));
  destruct (Z.ltb_spec (shoelace2 (ring_vertices ps)) 0); try reflexivity; lia.
Qed.

Definition rot (k : nat) (vs : list pt) : list pt :=
  skipn (k mod length vs) vs ++ firstn (k mod length vs) vs.

Lemma rot_nil (k : nat) : rot k [] = [].
Proof. unfold rot. rewrite skipn_nil, firstn_nil. reflexivity. Qed.

Lemma rot_length (k : nat) (vs : list pt) : length (rot k vs) = length vs.
Proof.
  unfold rot. rewrite app_length, skipn_length, firstn_length. lia.
Qed.

Lemma nth_app_swap {A} (d : A) (l1 l2 : list A) (j : nat) :
  (j < length l1 + length l2)%nat ->
  nth j (l2 ++ l1) d =
  nth ((j + length l1) mod (length l1 + length l2)) (l1 ++ l2) d.
Proof.
  intros Hj. destruct (Nat.lt_ge_cases j (length l2)) as [H|H].
  - rewrite app_nth1 by assumption.
    rewrite Nat.mod_small by lia. rewrite app_nth2 by lia.
    f_equal. lia.
  - rewrite app_nth2 by assumption.
    rewrite (mod_eq (j + length l1) (length l1 + length l2) 1 (j - length l2)) by lia.
    rewrite app_nth1 by lia. reflexivity.
Qed.

(* moving the first r elements to the end shifts every index by r, cyclically *)
Lemma nth_rot {A} (d : A) (l : list A) (r j : nat) :
  (r <= length l)%nat -> (j < length l)%nat ->
  nth j (skipn r l ++ firstn r l) d = nth ((j + r) mod length l) l d.
Proof.
  intros Hr Hj.
  assert (L1 : length (firstn r l) = r) by (rewrite firstn_length; lia).
  assert (L2 : length (skipn r l) = (length l - r)%nat) by apply skipn_length.
  rewrite nth_app_swap by lia. rewrite firstn_skipn, L1, L2.
  replace (r + (length l - r))%nat with (length l) by lia. reflexivity.
Qed.

Lemma cyc_rot (k : nat) (vs : list pt) (i : nat) : cyc (rot k vs) i = cyc vs (i + k).
Proof.
  destruct vs as [|v vs']; [rewrite rot_nil; unfold cyc; cbn; destruct i, k; reflexivity|].
  set (vs := v :: vs'). unfold cyc. rewrite rot_length.
  assert (Hn : length vs <> 0%nat) by discriminate.
  pose proof (Nat.mod_upper_bound k _ Hn). pose proof (Nat.mod_upper_bound i _ Hn).
  unfold rot. rewrite nth_rot by lia. rewrite <- Nat.add_mod by assumption. reflexivity.
Qed.

Lemma cyc_mod_l (vs : list pt) (i j : nat) : cyc vs (i mod length vs + j) = cyc vs (i + j).
Proof.
  destruct vs as [|v vs']; [reflexivity|]. unfold cyc.
  rewrite Nat.add_mod_idemp_l by discriminate. reflexivity.
Qed.

(* rotating the list shifts the cyclic triples; so it permutes whatever is
   computed from them vertex by vertex *)
Lemma ctri_rot (k : nat) (vs : list pt) (i : nat) :
  ctri (rot k vs) i = ctri vs ((i + k) mod length vs).
Proof.
  unfold ctri. rewrite !cyc_rot, !cyc_mod_l.
  rewrite <- (Nat.add_0_r ((i + k) mod length vs)) at 1. rewrite cyc_mod_l, Nat.add_0_r.
  replace (i + 1 + k)%nat with (i + k + 1)%nat by lia.
  replace (i + 2 + k)%nat with (i + k + 2)%nat by lia. reflexivity.
Qed.

(* a list read at the indices (i+k) mod n is the list with its first k mod n
   elements moved to the end *)
Lemma map_rot_index {A} (h : nat -> A) (n k : nat) :
  n <> 0%nat ->
  map (fun i => h ((i + k) mod n)%nat) (seq 0 n) =
  skipn (k mod n) (map h (seq 0 n)) ++ firstn (k mod n) (map h (seq 0 n)).
Proof.
  intros Hn. pose proof (Nat.mod_upper_bound k n Hn) as Hr.
  assert (Hl : length (map h (seq 0 n)) = n) by (rewrite map_length; apply seq_length).
  apply (nth_ext _ _ (h ((0 + k) mod n)%nat) (h 0%nat)).
  - rewrite app_length, skipn_length, firstn_length, !map_length, seq_length. lia.
  - rewrite map_length, seq_length. intros j Hj.
    rewrite (map_nth (fun i => h ((i + k) mod n)%nat)), nth_rot, Hl by (rewrite Hl; lia).
    rewrite (map_nth h), !seq_nth by (try apply Nat.mod_upper_bound; assumption).
    cbn [Nat.add]. rewrite Nat.add_mod_idemp_r by assumption. reflexivity.
Qed.

Lemma existsb_rot (f : Z -> bool) (h : nat -> Z) (n k : nat) :
  n <> 0%nat ->
  existsb f (map (fun i => h ((i + k) mod n)%nat) (seq 0 n)) = existsb f (map h (seq 0 n)).
Proof.
  intros Hn. rewrite map_rot_index by assumption.
  rewrite existsb_app, orb_comm, <- existsb_app, firstn_skipn. reflexivity.
Qed.

Lemma zsum_rot (h : nat -> Z) (n k : nat) :
  n <> 0%nat ->
  zsum (map (fun i => h ((i + k) mod n)%nat) (seq 0 n)) = zsum (map h (seq 0 n)).
Proof.
  intros Hn. rewrite map_rot_index by assumption.
  rewrite zsum_app, Z.add_comm, <- zsum_app, firstn_skipn. reflexivity.
Qed.

Theorem convex_rot (k : nat) (vs : list pt) : convex_specb (rot k vs) = convex_specb vs.
Proof.
  destruct vs as [|v vs']; [rewrite rot_nil; reflexivity|]. set (vs := v :: vs').
  unfold convex_specb. rewrite rot_length.
  rewrite (map_ext (turn (rot k vs)) (fun i => turn vs ((i + k) mod length vs)))
    by (intros i; exact (f_equal zcross (ctri_rot k vs i))).
  rewrite !(existsb_rot _ (turn vs)) by discriminate. reflexivity.
Qed.

Theorem shoelace_rot (k : nat) (vs : list pt) : shoelace2 (rot k vs) = shoelace2 vs.
Proof.
  destruct vs as [|v vs']; [rewrite rot_nil; reflexivity|]. set (vs := v :: vs').
  rewrite !shoelace2_zsum, rot_length.
  rewrite (map_ext _ _ (fun i => f_equal sh_of (ctri_rot k vs i))).
  apply (zsum_rot (fun i => sh_of (ctri vs i))). discriminate.
Qed.

Theorem clockwise_rot (k : nat) (vs : list pt) :
  clockwise_specb (rot k vs) = clockwise_specb vs.
Proof. unfold clockwise_specb. rewrite shoelace_rot. reflexivity. Qed.

Theorem ring_vertices_closing (vs : list pt) :
  vs <> [] -> pt_eqb (last vs pt0) (hd pt0 vs) = false ->
  ring_vertices (vs ++ [hd pt0 vs]) = vs /\ ring_vertices vs = vs.
Proof.
  intros Hne Hlast. destruct vs as [|v vs']; [congruence|].
  cbn [hd] in *. split.
  - unfold ring_vertices. cbn [app].
    change (v :: vs' ++ [v]) with ((v :: vs') ++ [v]).
    rewrite last_last, pt_eqb_refl. apply removelast_last.
  - unfold ring_vertices. rewrite Hlast. reflexivity.
Qed.

Print Assumptions segments_eq_spec.
Print Assumptions num_segments_spec.
Print Assumptions segment_at_in_range.
Print Assumptions segment_at_in_range_succ.
Print Assumptions segment_at_in_range_zero.
Print Assumptions open_series_segments.
Print Assumptions closed_series_segments.
Print Assumptions points_rect_tight.
Print Assumptions bbox_spec_tight.
Print Assumptions bbox_spec_attained.
Print Assumptions series_rect_spec.
Print Assumptions convex_specb_iff.
Print Assumptions turn_fold_iff.
Print Assumptions turn_fold_absorbing.
Print Assumptions series_convex_spec.
Print Assumptions series_clockwise_spec.
Print Assumptions convex_rot.
Print Assumptions shoelace_rot.
Print Assumptions clockwise_rot.
Print Assumptions ring_vertices_closing.
Print Assumptions convex_seam_pinned_refuted.
