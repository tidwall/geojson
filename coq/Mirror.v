(* Mirror.v — property C12: reflection in the vertical axis (x -> -x).
   It is the transposition, then y -> -y, then the transposition again, so ring membership is
   invariant under it because it is under those two (MirrorY.v); the Intersects answers of
   ring x segment, ring x line and ring x ring then follow as for every such map (Symmetry.v). *)
From GJ Require Import Base KernelSpec Series Ring RingSpec KernelProofs PipProofs PairProofs Invariance
  JordanQ MirrorY Symmetry.
Open Scope Z_scope.

Definition mir (p : pt) : pt := (- px p, py p).
Definition mirs (s : seg) : seg := (mir (fst s), mir (snd s)).

Lemma mir_mir p : mir (mir p) = p.
Proof. destruct p as [x y]. unfold mir, px, py. cbn [fst snd]. f_equal. lia. Qed.

Lemma cross_mir a b p : cross (mir a) (mir b) (mir p) = - cross a b p.
Proof. unfold cross, mir, px, py. cbn [fst snd]. ring. Qed.

Lemma on_segb_mir s p : on_segb (mirs s) (mir p) = on_segb s p.
Proof.
  destruct s as [a b]. apply bool_eq_iff. rewrite !on_segb_iff. unfold on_seg, mirs. cbn [fst snd].
  rewrite cross_mir. unfold mir, px, py. cbn [fst snd]. lia.
Qed.

Lemma sc_mir k p : sc k (mir p) = mir (sc k p).
Proof. destruct p as [x y]. unfold sc, aff, mir, px, py. cbn [fst snd]. f_equal; ring. Qed.

Lemma mir_tr_my p : mir p = tr (my (tr p)).
Proof. destruct p as [x y]. reflexivity. Qed.

Theorem in_ringb_mir (ps : list pt) (p : pt) :
  in_ringb (ring_edges (map mir ps)) (mir p) = in_ringb (ring_edges ps) p.
Proof.
  replace (map mir ps) with (map tr (map my (map tr ps))) by (rewrite !map_map; symmetry; apply map_ext, mir_tr_my).
  rewrite mir_tr_my, in_ringb_tr, in_ringb_my, in_ringb_tr. reflexivity.
Qed.

Theorem strictly_in_ringb_mir (ps : list pt) (p : pt) :
  strictly_in_ringb (ring_edges (map mir ps)) (mir p) = strictly_in_ringb (ring_edges ps) p.
Proof. apply (strictly_in_tau mir (pt_eqb_invol mir mir_mir) on_segb_mir), in_ringb_mir. Qed.

Theorem ring_contains_point_mir (ps : list pt) (p : pt) (allow : bool) :
  rcp_hit (RS {| closed := true; pts := map mir ps |}) (mir p) allow = rcp_hit (RS {| closed := true; pts := ps |}) p allow.
Proof. exact (ring_contains_point_tau mir mir_mir on_segb_mir in_ringb_mir ps p allow). Qed.

Theorem poly_contains_point_mir (e : list pt) (hs : list (list pt)) (p : pt) :
  poly_contains_point (Pg (map mir e) (map (map mir) hs)) (mir p) = poly_contains_point (Pg e hs) p.
Proof. exact (poly_contains_point_tau mir mir_mir on_segb_mir in_ringb_mir e hs p). Qed.

Print Assumptions in_ringb_mir.
Print Assumptions poly_contains_point_mir.

Theorem ring_intersects_segment_mir (ps : list pt) (A B : pt) :
  ring_intersects_segment (RS {| closed := true; pts := map mir ps |}) (mir A, mir B) true =
  ring_intersects_segment (RS {| closed := true; pts := ps |}) (A, B) true.
Proof. exact (ring_intersects_segment_tau mir mir_mir sc_mir on_segb_mir in_ringb_mir ps A B). Qed.

Theorem ring_intersects_line_mir (ps qs : list pt) :
  ring_intersects_line (RS {| closed := true; pts := map mir ps |}) (RS {| closed := false; pts := map mir qs |}) true =
  ring_intersects_line (RS {| closed := true; pts := ps |}) (RS {| closed := false; pts := qs |}) true.
Proof. exact (ring_intersects_line_tau mir mir_mir sc_mir on_segb_mir in_ringb_mir ps qs). Qed.

Theorem ring_intersects_ring_mir (ps qs : list pt) :
  ring_intersects_ring (RS {| closed := true; pts := map mir ps |}) (RS {| closed := true; pts := map mir qs |}) true =
  ring_intersects_ring (RS {| closed := true; pts := ps |}) (RS {| closed := true; pts := qs |}) true.
Proof. exact (ring_intersects_ring_tau mir mir_mir sc_mir in_ringb_mir ps qs). Qed.

Theorem poly_intersects_poly_noholes_mir (e1 e2 : list pt) :
  poly_intersects_poly (Pg (map mir e1) []) (Pg (map mir e2) []) = poly_intersects_poly (Pg e1 []) (Pg e2 []).
Proof. exact (poly_intersects_poly_noholes_tau mir mir_mir sc_mir in_ringb_mir e1 e2). Qed.

Print Assumptions ring_intersects_segment_mir.
Print Assumptions ring_intersects_line_mir.
Print Assumptions ring_intersects_ring_mir.
