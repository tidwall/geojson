(* SphereSemi.v — property C15, the semicircle encoding over the reals:
   DegsToSemi truncates degs * 2^31/180 toward zero (Go's int32 conversion; the
   model truncates into Z, the int32 range is left out) and SemiToDegs multiplies
   back; the round trip moves a coordinate by less than 180/2^31 degrees, i.e.
   less than 1 cm of arc on the Earth (the property allows 2 cm). *)
From Coq Require Import Reals Lra.
From GJ Require Import Sphere.
Open Scope R_scope.

(* truncation toward zero *)
Definition trunc (r : R) : Z := if Rle_dec 0 r then Int_part r else (- Int_part (- r))%Z.

Lemma trunc_close (r : R) : Rabs (IZR (trunc r) - r) < 1.
Proof.
  unfold trunc. destruct (Rle_dec 0 r) as [H|H].
  - destruct (base_Int_part r) as [A B]. apply Rabs_def1; lra.
  - destruct (base_Int_part (- r)) as [A B]. rewrite opp_IZR. apply Rabs_def1; lra.
Qed.

Definition semi_scale : R := 2 ^ 31 / 180.
Definition degs_to_semi (x : R) : Z := trunc (x * semi_scale).
Definition semi_to_degs (s : Z) : R := IZR s * (180 / 2 ^ 31).

Theorem semi_roundtrip (x : R) : Rabs (semi_to_degs (degs_to_semi x) - x) < 180 / 2 ^ 31.
Proof.
  unfold semi_to_degs, degs_to_semi, semi_scale. pose proof (trunc_close (x * (2 ^ 31 / 180))) as H.
  set (t := IZR (trunc (x * (2 ^ 31 / 180)))) in *.
  assert (P : 0 < 180 / 2 ^ 31) by (apply Rdiv_lt_0_compat; [lra|apply pow_lt; lra]).
  replace (t * (180 / 2 ^ 31) - x) with ((t - x * (2 ^ 31 / 180)) * (180 / 2 ^ 31)) by lra.
  rewrite Rabs_mult, (Rabs_right (180 / 2 ^ 31)) by lra.
  rewrite <- (Rmult_1_l (180 / 2 ^ 31)) at 2. apply Rmult_lt_compat_r; assumption.
Qed.

(* on the ground: less than one centimetre of arc *)
Theorem semi_roundtrip_ground : rad (180 / 2 ^ 31) * Rearth < 1 / 100.
Proof.
  (* 1 - 1/3 + 1/5 - 1/7 + 1/9 bounds PI / 4 from above: PI < 3.34, and 3.37 would do *)
  pose proof (PI_ineq 2) as [_ H]. unfold tg_alt, PI_tg in H. simpl in H.
  unfold rad, Rearth. lra.
Qed.

Print Assumptions semi_roundtrip.
