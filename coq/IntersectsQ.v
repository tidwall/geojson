(* IntersectsQ.v — C19: the orientation characterisation [seg_meet]
   of KernelSpec.v says exactly that the two closed segments have a common
   point, the points of a segment being taken over the rationals.
   A grid point of a segment has a rational parameter along it (on_seg_param; the converse is
   IntersectsProofs.on_seg_of_frac), along which a cross product is a weighted mean of its values
   at the ends (cross_along): hence a segment is convex and its points are ordered. *)
From Coq Require Import QArith.
From GJ Require Import Base Kernel KernelSpec IntersectsProofs.

Local Open Scope Z_scope.

(* q is a point a + t (b - a), 0 <= t <= 1, of the closed segment s = (a, b) *)
Definition on_segQ (s : seg) (q : Q * Q) : Prop :=
  exists t : Q,
    (0 <= t <= 1 /\
     fst q == inject_Z (px (fst s)) + t * inject_Z (px (snd s) - px (fst s)) /\
     snd q == inject_Z (py (fst s)) + t * inject_Z (py (snd s) - py (fst s)))%Q.

(* two intervals of a line with a common (rational) point: an end of one lies
   in the other *)
Lemma interval_1d T m n a b c d :
  0 < T -> 0 <= m <= T -> 0 <= n <= T ->
  T * (c - a) = m * (b - a) - n * (d - c) ->
  Z.min a b <= c <= Z.max a b \/ Z.min a b <= d <= Z.max a b \/
  Z.min c d <= a <= Z.max c d \/ Z.min c d <= b <= Z.max c d.
Proof.
  intros HT Hm Hn E.
  apply overlap_iff_end_inside, (convex_overlap (T - m) m (T - n) n); lia.
Qed.

(* a common point a + (m/T) r = c + (n/T) s with m/T, n/T in [0,1] *)
Lemma common_point_Z a b c d T m n :
  0 < T -> 0 <= m <= T -> 0 <= n <= T ->
  T * (px c - px a) = m * (px b - px a) - n * (px d - px c) ->
  T * (py c - py a) = m * (py b - py a) - n * (py d - py c) ->
  seg_meet (a, b) (c, d).
Proof.
  intros HT Hm Hn Ex Ey. rewrite seg_meet_unfold.
  (* when the part along one segment vanishes, the common point is an end of
     that segment and lies on the other *)
  assert (Hc : n * (px d - px c) = 0 -> n * (py d - py c) = 0 -> on_seg (a, b) c).
  { intros Zx Zy. apply (on_seg_of_frac a b c m T); unfold unit_fracP; lia. }
  assert (Ha : m * (px b - px a) = 0 -> m * (py b - py a) = 0 -> on_seg (c, d) a).
  { intros Zx Zy. apply (on_seg_of_frac c d a n T); unfold unit_fracP; lia. }
  pose proof (id_B a b c d) as HB. pose proof (id_D a b c d) as HD.
  assert (HTA : T * cross a b c = - n * rxs a b c d).
  { unfold cross, rxs.
    replace (T * ((px b - px a) * (py c - py a) - (py b - py a) * (px c - px a)))
      with ((px b - px a) * (T * (py c - py a)) - (py b - py a) * (T * (px c - px a)))
      by ring.
    rewrite Ex, Ey. ring. }
  assert (HTC : T * cross c d a = m * rxs a b c d).
  { unfold cross, rxs.
    replace (T * ((px d - px c) * (py a - py c) - (py d - py c) * (px a - px c)))
      with ((py d - py c) * (T * (px c - px a)) - (px d - px c) * (T * (py c - py a)))
      by ring.
    rewrite Ex, Ey. ring. }
  destruct (Z.eq_dec (rxs a b c d) 0) as [HR|HR].
  - (* all four points on one line (or a degenerate segment) *)
    rewrite HR in *.
    assert (HA : cross a b c = 0) by lia.
    assert (HC : cross c d a = 0) by lia.
    assert (HB' : cross a b d = 0) by lia.
    assert (HD' : cross c d b = 0) by lia.
    clear HB HD HTA HTC.
    unfold rxs in HR.
    destruct (Z.eq_dec (px a) (px b)) as [Erx|Nrx].
    + destruct (Z.eq_dec (py a) (py b)) as [Ery|Nry].
      { right; right; left. apply Ha; [rewrite Erx|rewrite Ery]; ring. }
      destruct (Z.eq_dec (py c) (py d)) as [Esy|Nsy].
      { assert (Esx : px c = px d) by nia.
        left. apply Hc; [rewrite Esx|rewrite Esy]; ring. }
      destruct (interval_1d T m n (py a) (py b) (py c) (py d) HT Hm Hn Ey)
        as [H|[H|[H|H]]].
      * left. apply collinear_in_y; assumption.
      * right; left. apply collinear_in_y; assumption.
      * right; right; left. apply collinear_in_y; assumption.
      * right; right; right; left. apply collinear_in_y; assumption.
    + destruct (Z.eq_dec (px c) (px d)) as [Esx|Nsx].
      { assert (Esy : py c = py d) by nia.
        left. apply Hc; [rewrite Esx|rewrite Esy]; ring. }
      destruct (interval_1d T m n (px a) (px b) (px c) (px d) HT Hm Hn Ex)
        as [H|[H|[H|H]]].
      * left. apply collinear_in_x; assumption.
      * right; left. apply collinear_in_x; assumption.
      * right; right; left. apply collinear_in_x; assumption.
      * right; right; right; left. apply collinear_in_x; assumption.
  - destruct (Z.eq_dec (cross a b c) 0) as [HA|HA].
    + (* c is the common point *)
      assert (En : n = 0) by nia.
      left. apply Hc; rewrite En; ring.
    + rewrite <- seg_meet_unfold. apply (transversal_meet a b c d HA HR). unfold unit_fracP.
      clear - HT Hm Hn HTA HTC HR.
      destruct (Z.lt_trichotomy 0 (rxs a b c d)) as [?|[?|?]]; [|lia|].
      * split; left; repeat split; nia.
      * split; right; repeat split; nia.
Qed.

(* an integer "rational parameter" for a point of the segment *)
Lemma on_seg_param a b p :
  on_seg (a, b) p ->
  exists n d, 0 < d /\ 0 <= n <= d /\
    d * (px p - px a) = n * (px b - px a) /\
    d * (py p - py a) = n * (py b - py a).
Proof.
  unfold on_seg, cross. intros (E & Hx & Hy).
  destruct (Z.lt_trichotomy (px a) (px b)) as [H|[H|H]].
  - exists (px p - px a), (px b - px a). repeat split; lia.
  - destruct (Z.lt_trichotomy (py a) (py b)) as [H'|[H'|H']].
    + exists (py p - py a), (py b - py a). repeat split; try lia; nia.
    + exists 0, 1. repeat split; lia.
    + exists (py a - py p), (py a - py b). repeat split; try lia; nia.
  - exists (px a - px p), (px a - px b). repeat split; lia.
Qed.

(* hence [cross a b] at a point of a segment is a weighted mean of its values at the two ends *)
Lemma cross_along a b P V W : on_seg (P, V) W ->
  exists n d, 0 < d /\ 0 <= n <= d /\ d * cross a b W = (d - n) * cross a b P + n * cross a b V.
Proof.
  intros H. destruct (on_seg_param P V W H) as (n & d & Hd & Hn & Ex & Ey).
  exists n, d. split; [exact Hd|]. split; [exact Hn|]. exact (cross_param a b P V W n d Ex Ey).
Qed.

Lemma on_seg_convex a b X Y Z : on_seg (a, b) X -> on_seg (a, b) Y -> on_seg (X, Y) Z -> on_seg (a, b) Z.
Proof.
  intros (CX & Xx & Xy) (CY & Yx & Yy) HZ. destruct (cross_along a b X Y Z HZ) as (n & d & Hd & _ & A).
  rewrite CX, CY, !Z.mul_0_r in A. apply Z.mul_eq_0_r in A; [|lia].
  destruct HZ as (_ & Zx & Zy). split; [exact A|]. split; [clear - Xx Yx Zx|clear - Xy Yy Zy]; lia.
Qed.

(* order along a line: P .. Q .. W .. V *)
Lemma on_seg_between P V W Q : on_seg (P, V) W -> on_seg (P, W) Q -> on_seg (Q, V) W.
Proof.
  intros (CW & Wx & Wy) HQ. destruct (cross_along V W P W Q HQ) as (m & e & He & _ & A).
  replace (cross V W P) with (cross P V W) in A by (unfold cross; ring).
  replace (cross V W W) with 0 in A by (unfold cross; ring).
  replace (cross V W Q) with (cross Q V W) in A by (unfold cross; ring).
  rewrite CW, !Z.mul_0_r in A. apply Z.mul_eq_0_r in A; [|lia].
  destruct HQ as (_ & Qx & Qy). split; [exact A|]. split; [clear - Wx Qx|clear - Wy Qy]; lia.
Qed.

(* the rational n/d, for d > 0 *)
Definition zq (n d : Z) : Q := n # Z.to_pos d.

Lemma zq_bounds n d : 0 < d -> 0 <= n <= d -> (0 <= zq n d <= 1)%Q.
Proof.
  intros Hd Hn. unfold zq, Qle. simpl. rewrite Z2Pos.id by lia. lia.
Qed.

Lemma zq_comb_eq d n m a r c s :
  0 < d -> d * a + n * r = d * c + m * s ->
  (inject_Z a + zq n d * inject_Z r == inject_Z c + zq m d * inject_Z s)%Q.
Proof.
  intros Hd E. unfold zq, Qeq, Qplus, Qmult, inject_Z. simpl.
  rewrite !Pos.mul_1_r. rewrite !Z2Pos.id by lia.
  replace (a * d + n * r * 1) with (d * a + n * r) by ring.
  replace (c * d + m * s * 1) with (d * c + m * s) by ring.
  rewrite E. reflexivity.
Qed.

Lemma zq_eq d n a r k :
  0 < d -> d * k = n * r ->
  (inject_Z (a + k) == inject_Z a + zq n d * inject_Z r)%Q.
Proof.
  intros Hd E. unfold zq, Qeq, Qplus, Qmult, inject_Z. simpl.
  rewrite !Pos.mul_1_r. rewrite !Z2Pos.id by lia.
  nia.
Qed.

(* n/d in [0,1], written over the positive denominator d * d *)
Lemma unit_frac_sq n d : unit_fracP n d -> 0 <= d * n <= d * d.
Proof. unfold unit_fracP. nia. Qed.

Lemma on_seg_on_segQ a b p :
  on_seg (a, b) p -> on_segQ (a, b) (inject_Z (px p), inject_Z (py p)).
Proof.
  intros H. destruct (on_seg_param a b p H) as (n & d & Hd & Hn & Ex & Ey).
  exists (zq n d). split; [apply zq_bounds; assumption|]. cbn [fst snd].
  split.
  - replace (px p) with (px a + (px p - px a)) at 1 by ring.
    apply zq_eq; assumption.
  - replace (py p) with (py a + (py p - py a)) at 1 by ring.
    apply zq_eq; assumption.
Qed.

Lemma on_segQ_left a b : on_segQ (a, b) (inject_Z (px a), inject_Z (py a)).
Proof. apply on_seg_on_segQ, on_seg_left. Qed.

Lemma on_segQ_right a b : on_segQ (a, b) (inject_Z (px b), inject_Z (py b)).
Proof. apply on_seg_on_segQ, on_seg_right. Qed.

Lemma seg_meet_common_point a b c d :
  seg_meet (a, b) (c, d) -> exists q, on_segQ (a, b) q /\ on_segQ (c, d) q.
Proof.
  rewrite seg_meet_unfold. intros [H|[H|[H|[H|[H1 H2]]]]].
  - exists (inject_Z (px c), inject_Z (py c)).
    split; [apply on_seg_on_segQ; exact H | apply on_segQ_left].
  - exists (inject_Z (px d), inject_Z (py d)).
    split; [apply on_seg_on_segQ; exact H | apply on_segQ_right].
  - exists (inject_Z (px a), inject_Z (py a)).
    split; [apply on_segQ_left | apply on_seg_on_segQ; exact H].
  - exists (inject_Z (px b), inject_Z (py b)).
    split; [apply on_segQ_right | apply on_seg_on_segQ; exact H].
  - (* proper crossing: Cramer's point a + (C/R) r = c + (-A/R) s, the quotients written over R * R > 0 *)
    destruct (opp_unit_frac a b c d H1 H2) as (HR & FC & FA).
    set (R := rxs a b c d) in *.
    assert (HRR : 0 < R * R) by nia.
    exists ((inject_Z (px a) + zq (R * cross c d a) (R * R) * inject_Z (px b - px a))%Q,
            (inject_Z (py a) + zq (R * cross c d a) (R * R) * inject_Z (py b - py a))%Q).
    split.
    + exists (zq (R * cross c d a) (R * R)). split; [apply (zq_bounds _ _ HRR), unit_frac_sq, FC|]. split; reflexivity.
    + exists (zq (R * - cross a b c) (R * R)). split; [apply (zq_bounds _ _ HRR), unit_frac_sq, FA|].
      split; apply (zq_comb_eq _ _ _ _ _ _ _ HRR); cbn [fst snd]; unfold R, rxs, cross; ring.
Qed.

Lemma common_point_seg_meet a b c d q :
  on_segQ (a, b) q -> on_segQ (c, d) q -> seg_meet (a, b) (c, d).
Proof.
  intros (t & Ht & Etx & Ety) (u & Hu & Eux & Euy). cbn [fst snd] in *.
  rewrite Etx in Eux. rewrite Ety in Euy. clear Etx Ety.
  destruct t as [tn td], u as [un ud].
  unfold Qle in Ht, Hu. simpl in Ht, Hu.
  unfold Qeq, Qplus, Qmult, inject_Z in Eux, Euy. simpl in Eux, Euy.
  rewrite ?Pos.mul_1_r, ?Pos2Z.inj_mul in Eux, Euy.
  assert (Htd : 0 < Z.pos td) by lia. assert (Hud : 0 < Z.pos ud) by lia.
  set (Td := Z.pos td) in *. set (Ud := Z.pos ud) in *.
  apply (common_point_Z a b c d (Td * Ud) (tn * Ud) (un * Td)).
  - nia.
  - split; nia.
  - split; nia.
  - lia.
  - lia.
Qed.

Theorem seg_meet_iff_common_point s o :
  seg_meet s o <-> exists q, on_segQ s q /\ on_segQ o q.
Proof.
  destruct s as [a b], o as [c d]. split.
  - apply seg_meet_common_point.
  - intros (q & H1 & H2). exact (common_point_seg_meet a b c d q H1 H2).
Qed.

(* hence: the repaired IntersectsSegment decides "the segments share a point" *)
Corollary intersects_segment_iff_common_point s o :
  intersects_segment s o = true <-> exists q, on_segQ s q /\ on_segQ o q.
Proof. rewrite intersects_segment_iff. apply seg_meet_iff_common_point. Qed.

Print Assumptions seg_meet_iff_common_point.
Print Assumptions intersects_segment_iff_common_point.
