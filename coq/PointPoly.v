(* PointPoly.v — property C03: Point.ContainsPoly is exact: a point contains a polygon exactly when the
   polygon is non-empty and every vertex of its exterior ring is that point (holes lie inside the exterior). *)
From GJ Require Import Base Ring PairProofs.
Import ListNotations.
Open Scope Z_scope.

Theorem point_contains_poly_spec (p : pt) (e : list pt) (hs : list (list pt)) :
  point_contains_poly p (Pg e hs) = true <-> (3 <= length e)%nat /\ forall v, In v e -> v = p.
Proof.
  unfold point_contains_poly, point_rect, poly_empty, poly_rect, Pg. cbn [exterior].
  rewrite andb_true_iff, negb_true_iff, Rg_empty, Nat.ltb_ge, rect_eqb_eq.
  apply and_iff_hyp. intros H. rewrite (Rg_rect e H). apply bbox_point_iff, (length_nonnil e 2 H).
Qed.
Print Assumptions point_contains_poly_spec.
