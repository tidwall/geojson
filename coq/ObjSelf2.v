(* ObjSelf2.v — property C09: "a non-empty object contains itself", at the Geometry interface:
   Point, Rect, Line (the coverage walk finds each segment of the line in one pass), and polygons with
   holes none of whose rings runs through one of its own vertices, whichever way the exterior's
   convexity flag is set. *)
From GJ Require Import Base Kernel KernelSpec Ring RingSpec PairSpec Pairs PairProofs KernelProofs
  IntersectsProofs RaycastProofs PipProofs ObjProofs ObjSym ObjSelf ObjLaws2 LineProofs LineSound.
Import ListNotations.
Open Scope Z_scope.

(* a line covers each of its own segments in one pass *)
Lemma line_covers_own_segment (l : rng) (sg : seg) : In sg (ring_segments l) -> line_covers_segment l sg = Some true.
Proof.
  destruct sg as [a b]. intros Hin. destruct (search_on l (a, b) a Hin (on_seg_left a b)) as (i & Hi).
  assert (Ron : raycast_on (a, b) a = true) by (apply raycast_on_iff; apply on_seg_left).
  destruct (pt_eqb a b) eqn:E.
  - unfold line_covers_segment. cbn [fst snd]. rewrite E. f_equal. unfold line_contains_point_r. apply existsb_exists.
    exists ((a, b), i). split; [exact Hi|exact Ron].
  - rewrite (covers_first_pass l a b E). cbn [covers_walk]. rewrite covers_step_fold.
    assert (G : collinear_point (fst ((a, b), i)) a && collinear_point (fst ((a, b), i)) b && raycast_on (fst ((a, b), i)) a = true).
    { cbn [fst]. rewrite !(proj2 (collinear_point_iff (a, b) _)), Ron by (unfold cross; cbn [fst snd]; lia). reflexivity. }
    destruct (cfold_reach a b a ((a, b), i) _ Hi G (a, 0)) as [_ R]. cbn [fst snd] in R.
    destruct (fold_left (cstep a b a) (ring_search l (a, a)) (a, 0)) as [best bestd]. cbn [snd] in R. cbn [fst snd].
    destruct (Z.leb_spec (dotp a b b) bestd); [reflexivity|lia].
Qed.

Theorem line_contains_self (l : rng) : ring_empty l = false -> line_contains_line l l = Some true.
Proof.
  intros He. unfold line_contains_line. rewrite He. cbn [orb]. apply all_some_true_iff.
  intros x Hx. apply in_map_iff in Hx. destruct Hx as (sg & <- & Hsg). apply line_covers_own_segment. exact Hsg.
Qed.

(* the point search on a boundary point reports a segment that carries the point *)
Lemma pip_fold_on (allow : bool) (p : pt) (l : list (seg * nat)) : forall inn,
  existsb (fun si => on_segb (fst si) p) l = true ->
  exists s i, In (s, i) l /\ on_segb s p = true /\ pip_fold allow p l inn = (allow, Z.of_nat i).
Proof.
  induction l as [|[sg i] l IH]; intros inn H; [discriminate|]. cbn [pip_fold existsb fst] in *.
  rewrite raycast_eq_spec. destruct (on_segb sg p) eqn:E; cbn [orb] in H.
  - exists sg, i. split; [left; reflexivity|]. split; [exact E|reflexivity].
  - destruct (IH (if crossesb sg p && true then negb inn else inn) H) as (s & j & Hin & Hon & Hp).
    exists s, j. split; [right; exact Hin|]. split; [exact Hon|]. rewrite andb_true_r in Hp. rewrite andb_true_r. exact Hp.
Qed.

Lemma indexed_nth {A} (l : list A) (x d : A) (i : nat) : In (x, i) (indexed l) -> nth i l d = x.
Proof. intros H. apply in_combine_seq in H. destruct H as [_ H]. rewrite Nat.sub_0_r in H. apply nth_error_nth, H. Qed.

Lemma rcp_on_boundary (r : rng) (p : pt) (allow : bool) :
  rect_contains_point (ring_rect r) p = true -> on_boundaryb (ring_segments r) p = true ->
  exists i s, In s (ring_segments r) /\ nth_seg r (Z.of_nat i) = s /\ on_segb s p = true /\
              ring_contains_point r p allow = (allow, Z.of_nat i).
Proof.
  intros Hr Hb. unfold ring_contains_point. rewrite Hr. cbn [negb].
  destruct (strip_search_sound r p) as [E _]. rewrite Hb in E.
  destruct (pip_fold_on allow p _ false E) as (s & i & Hin & Hon & Hp).
  unfold strip_search in Hin. apply filter_In in Hin. destruct Hin as [Hin _].
  exists i, s. split; [apply (in_combine_l _ _ _ _ Hin)|]. split; [|split; [exact Hon|exact Hp]].
  unfold nth_seg. rewrite Nat2Z.id. apply (indexed_nth _ s _ i Hin).
Qed.

(* no vertex of the ring lies in the interior of an edge *)
Definition simple_vertices (e : list pt) : Prop :=
  forall v s, In v e -> In s (ring_edges e) -> on_seg s v -> v = fst s \/ v = snd s.

Lemma edge_end_in_rect (e : list pt) (v : pt) : (3 <= length e)%nat -> In v e ->
  rect_contains_point (ring_rect (Rg e)) v = true.
Proof.
  intros H3 Hv. apply (rcp_hit_in_rect (Rg e) v true), vertex_hit; assumption.
Qed.

(* ringContainsSegment accepts every edge of a ring whose vertices are not interior to edges *)
Lemma rcs_own_edge (e : list pt) (a b : pt) : simple_vertices e -> In (a, b) (ring_edges e) -> rcs (Rg e) (a, b) true = true.
Proof.
  intros Hs Hin.
  assert (H3 : (3 <= length e)%nat).
  { destruct (Nat.ltb_spec (length e) 3) as [L|L]; [|exact L]. rewrite (ring_edges_short e L) in Hin. destruct Hin. }
  destruct (ring_edges_endpoints e a b Hin) as [Ia Ib].
  pose proof (edge_end_in_rect e a H3 Ia) as Ra. pose proof (edge_end_in_rect e b H3 Ib) as Rb.
  pose proof (vertex_on_boundaryb e a H3 Ia) as Ba. pose proof (vertex_on_boundaryb e b H3 Ib) as Bb. rewrite <- Rg_segs in Ba, Bb.
  destruct (rcp_on_boundary (Rg e) a true Ra Ba) as (ia & sa & Sa & Na & Oa & Pa).
  destruct (rcp_on_boundary (Rg e) b true Rb Bb) as (ib & sb & Sb & Nb & Ob & Pb).
  rewrite Rg_segs in Sa, Sb. apply on_segb_iff in Oa. apply on_segb_iff in Ob.
  unfold rcs, ring_contains_segment. rewrite Ra, Rb, Pa, Pb. cbn [negb orb fst snd].
  destruct (pt_eqb b a); [reflexivity|].
  destruct (ring_convex (Rg e)); [reflexivity|].
  assert (NA : (Z.of_nat ia =? -1) = false) by (apply Z.eqb_neq; lia).
  assert (NB : (Z.of_nat ib =? -1) = false) by (apply Z.eqb_neq; lia).
  rewrite NA, NB. cbn [negb].
  destruct (Z.of_nat ib =? Z.of_nat ia); [reflexivity|].
  rewrite Na, Nb.
  destruct (Hs a sa Ia Sa Oa) as [Ea|Ea].
  - assert (T : pt_eqb (fst sa) a = true) by (apply pt_eqb_eq; congruence). rewrite T. reflexivity.
  - assert (T : pt_eqb (snd sa) a = true) by (apply pt_eqb_eq; congruence). rewrite T, !orb_true_r. reflexivity.
Qed.

Theorem ring_contains_self (e : list pt) : (3 <= length e)%nat -> simple_vertices e ->
  ring_contains_ring (Rg e) (Rg e) true = true.
Proof.
  intros H3 Hs.
  assert (Ne : ring_empty (Rg e) = false) by (rewrite (Rg_empty e); apply Nat.ltb_ge; exact H3).
  assert (Core : rcr_core (Rg e) (Rg e) true = true).
  { unfold rcr_core. rewrite Ne, rcr_refl. cbn [orb negb].
    destruct (ring_convex (Rg e)); apply forallb_forall.
    - intros v Hv. rewrite Rg_pts in Hv. apply vertex_hit; assumption.
    - intros [a b] Hsg. rewrite Rg_segs in Hsg. apply rcs_own_edge; assumption. }
  unfold ring_contains_ring. rewrite Ne. cbn [orb].
  destruct ((complexRingMinPoints <=? ring_npoints (Rg e))%nat && rcr_core (Rg e) (RR (ring_rect (Rg e))) true); [reflexivity|exact Core].
Qed.

Lemma ring_intersects_ring_empty_l (r o : rng) allow : ring_empty r = true -> ring_intersects_ring r o allow = false.
Proof. unfold ring_intersects_ring. intros ->. reflexivity. Qed.

(* a polygon contains itself: exterior of three points or more; no vertex of a ring interior to an
   edge of the same ring; holes allowed (each hole is covered by itself) *)
Theorem poly_contains_self (e : list pt) (hs : list (list pt)) : (3 <= length e)%nat -> simple_vertices e ->
  (forall h, In h hs -> simple_vertices h) -> poly_contains_poly (Pg e hs) (Pg e hs) = true.
Proof.
  intros H3 Hs Hh. unfold poly_contains_poly. cbn [exterior holes Pg].
  rewrite (ring_contains_self e H3 Hs). cbn [negb]. apply forallb_forall. intros ph Hph.
  apply in_map_iff in Hph. destruct Hph as (h & <- & Hin).
  destruct (Nat.ltb_spec (length h) 3) as [L|L].
  - rewrite ring_intersects_ring_empty_l; [reflexivity|]. rewrite (Rg_empty h). apply Nat.ltb_lt. exact L.
  - destruct (ring_intersects_ring (Rg h) (Rg e) false); [|reflexivity].
    apply existsb_exists. exists (Rg h). split; [apply in_map; exact Hin|]. apply ring_contains_self; [exact L|apply Hh; exact Hin].
Qed.

Definition self_ok (s : shape) : Prop :=
  match s with
  | SRect r => rect_wf r
  | SPoly e hs => simple_vertices e /\ forall h, In h hs -> simple_vertices h
  | _ => True
  end.

Theorem g_contains_self (s : shape) : self_ok s -> s_empty s = false ->
  g_contains (g_of_shape s) (g_of_shape s) = Some true.
Proof.
  destruct s as [p|r|ps|e hs]; rewrite ?g_of_line, ?g_of_poly; cbn [self_ok s_empty g_of_shape g_contains ob]; intros Hok Hne.
  - rewrite pt_eqb_refl. reflexivity.
  - rewrite rcr_refl. reflexivity.
  - apply line_contains_self. rewrite Lr_empty. exact Hne.
  - apply Nat.ltb_ge in Hne. destruct Hok as [He Hh]. rewrite (poly_contains_self e hs Hne He Hh). reflexivity.
Qed.

Print Assumptions g_contains_self.

(* the hypothesis is met by a concave polygon with a hole *)
Example self_ok_concave : self_ok (SPoly [(0,0);(8,0);(8,8);(4,4);(0,8);(0,0)] [[(1,1);(3,1);(2,3);(1,1)]]).
Proof.
  assert (D : forall e, (forallb (fun v => forallb (fun s => negb (on_segb s v) || pt_eqb v (fst s) || pt_eqb v (snd s)) (ring_edges e)) e = true) -> simple_vertices e).
  { intros e H v s Hv Hsin Hon. rewrite forallb_forall in H. specialize (H v Hv). rewrite forallb_forall in H. specialize (H s Hsin).
    apply on_segb_iff in Hon. rewrite Hon in H. cbn [negb orb] in H. apply orb_true_iff in H. destruct H as [H|H]; apply pt_eqb_eq in H; auto. }
  split; [apply D; vm_compute; reflexivity|]. intros h [<-|[]]. apply D. vm_compute. reflexivity.
Qed.
Example self_contains_concave :
  g_contains (g_of_shape (SPoly [(0,0);(8,0);(8,8);(4,4);(0,8);(0,0)] [[(1,1);(3,1);(2,3);(1,1)]]))
             (g_of_shape (SPoly [(0,0);(8,0);(8,8);(4,4);(0,8);(0,0)] [[(1,1);(3,1);(2,3);(1,1)]])) = Some true.
Proof. vm_compute. reflexivity. Qed.
