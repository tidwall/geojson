(* RoundTrip.v — property C06, the main claim at tree level: for every object in
   parsed form (what Parse returns for a document whose numbers are finite),
   Parse of the writers' tree [emit_jv g] under the same options returns
   [norm g] — g itself, except that a Feature without a "properties" member has
   gained the default one — and [norm g] writes the same tree, so one step
   reaches a fixpoint.  The text level is EmitProofs.emit_is_print (the bytes
   are the minified print of the tree) plus the tokenizer, which is outside the
   model (the harness's independent tokenizer supplies trees). *)
From GJ Require Import Base JsonConst Json JsonProofs EmitProofs.
Open Scope Z_scope.

Lemma nth_prefix {A} (dflt : A) (l : list A) : forall (d : nat), (d <= length l)%nat ->
  map (fun i => nth i l dflt) (seq 0 d) = firstn d l.
Proof.
  induction l as [|x l IH]; intros d H.
  - cbn [length] in H. assert (d = 0)%nat by lia. subst d. reflexivity.
  - destruct d as [|d]; [reflexivity|]. cbn [seq map firstn nth]. f_equal.
    rewrite <- seq_shift, map_map. apply IH. cbn [length] in H. lia.
Qed.

Lemma nth_chunk {A} (dflt : A) (l : list A) : forall (a d : nat), (a + d <= length l)%nat ->
  map (fun i => nth (a + i) l dflt) (seq 0 d) = firstn d (skipn a l).
Proof.
  induction l as [|x l IH]; intros a d H.
  - cbn [length] in H. assert (d = 0)%nat by lia. subst d. destruct a; reflexivity.
  - destruct a as [|a].
    + cbn [skipn Nat.add]. apply nth_prefix. exact H.
    + cbn [skipn]. rewrite <- (IH a d) by (cbn [length] in H; lia). apply map_ext. intros i. reflexivity.
Qed.

Lemma firstn_add_skipn {A} (l : list A) (a d : nat) : firstn (a + d) l = firstn a l ++ firstn d (skipn a l).
Proof.
  revert l. induction a as [|a IH]; intros l; [reflexivity|].
  destruct l as [|x l]; [cbn; rewrite firstn_nil; reflexivity|]. cbn [Nat.add firstn skipn app]. rewrite IH. reflexivity.
Qed.

Lemma map_nth_id {A} (dflt : A) (l : list A) : map (fun i => nth i l dflt) (seq 0 (length l)) = l.
Proof. rewrite (nth_prefix dflt l (length l) (le_n _)). apply firstn_all. Qed.

Lemma pad_self (more : list fnum) : pad_dims (length more) more = more.
Proof. unfold pad_dims. apply map_nth_id. Qed.

Section RT.
Variable fmt : Z -> list Z.

Definition fin (f : fnum) : Prop := match f with FV _ => True | _ => False end.
Definition fin_pt (p : fpt) : Prop := fin (fst p) /\ fin (snd p).

Lemma take_nums_true (n : nat) : forall l, take_nums true n (map (num_jv fmt) l) = Some (firstn n l).
Proof.
  induction n as [|n IH]; intros l; [destruct l; reflexivity|].
  destruct l as [|f l]; [reflexivity|]. cbn [map take_nums firstn].
  destruct f; cbn [num_jv]; rewrite IH; reflexivity.
Qed.

Lemma take_nums_false (n : nat) : forall l, Forall fin l -> take_nums false n (map (num_jv fmt) l) = Some (firstn n l).
Proof.
  induction n as [|n IH]; intros l H; [destruct l; reflexivity|].
  destruct l as [|f l]; [reflexivity|]. inversion H as [|? ? Hf Hl]; subst. cbn [map take_nums firstn].
  destruct f; cbn [fin] in Hf; try contradiction. cbn [num_jv]. rewrite (IH l Hl). reflexivity.
Qed.

Definition pos_vals (ex : option extra) (idx : nat) : list fnum :=
  map (fun i => ex_value ex (idx * ex_dims ex + i)) (seq 0 (ex_dims ex)).
Definition pos_nums (p : fpt) (ex : option extra) (idx : nat) : list fnum := fst p :: snd p :: pos_vals ex idx.

Lemma point_jv_map (p : fpt) (ex : option extra) (idx : nat) :
  point_jv fmt p ex idx = JArr (map (num_jv fmt) (pos_nums p ex idx)).
Proof. unfold point_jv, pos_nums, pos_vals. cbv zeta. cbn [map]. rewrite map_map. reflexivity. Qed.

Lemma pos_vals_length (ex : option extra) (idx : nat) : length (pos_vals ex idx) = ex_dims ex.
Proof. unfold pos_vals. rewrite map_length, seq_length. reflexivity. Qed.

(* the coordinate part of an extra, as the coordinate parsers rebuild it *)
Definition coords_part (ex : option extra) : option extra :=
  match ex with
  | Some e => match dims e with O => None | _ => Some {| dims := dims e; values := values e; members := None |} end
  | None => None
  end.
Definition ex_members (ex : option extra) : list (jkey * jv) :=
  match ex with Some e => match members e with Some ms => ms | None => [] end | None => [] end.
Definition ex_values (ex : option extra) : list fnum := match ex with Some e => values e | None => [] end.

Definition foreign_key (kv : jkey * jv) : bool :=
  let d := snd (fst kv) in
  negb (bytes_eqb d s_type || bytes_eqb d s_coordinates || bytes_eqb d s_geometries || bytes_eqb d s_geometry
        || bytes_eqb d s_features).

(* an extra in parsed form, for an object with n positions *)
Definition ex_form (n : nat) (ex : option extra) : Prop :=
  match ex with
  | None => True
  | Some e =>
      (dims e <= 2)%nat /\ length (values e) = (dims e * n)%nat /\
      match members e with
      | Some ms => ms <> [] /\ forallb foreign_key ms = true
      | None => dims e <> 0%nat
      end
  end.

Lemma extra_members_false (ex : option extra) : extra_members ex false = ex_members ex.
Proof. destruct ex as [[d v [ms|]]|]; cbn; [rewrite app_nil_r|..]; reflexivity. Qed.

Lemma with_members_back (n : nat) (ex : option extra) : ex_form n ex ->
  with_members (coords_part ex) (ex_members ex) = ex.
Proof.
  destruct ex as [[d v ms]|]; [|reflexivity]. cbn [ex_form dims values members coords_part ex_members].
  intros (Hd & Hl & Hm). destruct d as [|d].
  - destruct v; [|cbn in Hl; lia]. destruct ms as [ms|]; [|congruence]. destruct Hm as [Hne _].
    destruct ms; [congruence|]. reflexivity.
  - destruct ms as [ms|]; [|reflexivity]. destruct Hm as [Hne _]. destruct ms; [congruence|]. reflexivity.
Qed.

Lemma ex_vals_chunk (ex : option extra) (idx n : nat) : length (ex_values ex) = (ex_dims ex * n)%nat -> (idx < n)%nat ->
  pos_vals ex idx = firstn (ex_dims ex) (skipn (idx * ex_dims ex) (ex_values ex)).
Proof.
  intros Hl Hi. unfold pos_vals. destruct ex as [e|]; cbn [ex_dims ex_value ex_values] in *; [|reflexivity].
  apply nth_chunk. rewrite Hl. clear - Hi. nia.
Qed.

(* Point / MultiPoint positions *)
Lemma parse_point_back (top : bool) (p : fpt) (ex : option extra) : ex_form 1 ex ->
  parse_point_coords top (Some (point_jv fmt p ex 0)) = ROk (p, coords_part ex).
Proof.
  intros H. rewrite point_jv_map, point_coords_arr, take_nums_true. unfold pos_nums.
  assert (Hv : pos_vals ex 0 = ex_values ex /\ (length (ex_values ex) = ex_dims ex) /\ (ex_dims ex <= 2)%nat).
  { destruct ex as [e|]; cbn [ex_form ex_values ex_dims] in *; [|repeat split; try reflexivity; lia].
    destruct H as (Hd & Hl & _). rewrite Nat.mul_1_r in Hl. repeat split; [|exact Hl|exact Hd].
    unfold pos_vals. cbn [ex_dims ex_value Nat.mul Nat.add]. rewrite <- Hl. apply map_nth_id. }
  destruct Hv as (-> & Hl & Hd). destruct p as [x y]. cbn [fst snd].
  destruct ex as [[d v ms]|]; cbn [ex_values ex_dims coords_part dims values members] in *; [|reflexivity].
  destruct v as [|z [|m [|w v]]]; cbn [length] in Hl; subst d; cbn [firstn extra_of_nums]; try reflexivity. lia.
Qed.

(* the parser's running extra after [pidx] positions of an object whose extra is [ex] *)
Definition pex (ex : option extra) (pidx : nat) : option extra :=
  match ex_dims ex, pidx with
  | O, _ | _, O => None
  | d, _ => Some {| dims := d; values := firstn (d * pidx) (ex_values ex); members := None |}
  end.

Definition vals_fin (ex : option extra) : Prop := Forall fin (ex_values ex).

Lemma pos_vals_fin (ex : option extra) (idx n : nat) :
  vals_fin ex -> length (ex_values ex) = (ex_dims ex * n)%nat -> (idx < n)%nat -> Forall fin (pos_vals ex idx).
Proof.
  intros Hf Hl Hi. rewrite (ex_vals_chunk ex idx n Hl Hi). apply Forall_firstn', Forall_skipn'. exact Hf.
Qed.

Lemma pos_step_back (mixed arr first : bool) (ex : option extra) (n pidx : nat) (acc : list fpt) (p : fpt) :
  (ex_dims ex <= 2)%nat -> length (ex_values ex) = (ex_dims ex * n)%nat -> vals_fin ex -> fin_pt p ->
  (pidx < n)%nat -> (pidx = 0%nat -> first = true) ->
  pos_step mixed arr (ROk (acc, pex ex pidx, first)) (point_jv fmt p ex pidx) = ROk (p :: acc, pex ex (S pidx), false).
Proof.
  intros Hd Hl Hf [Hx Hy] Hi H0. rewrite pos_step_eq, point_jv_map. cbn [is_array negb elems]. rewrite andb_false_r, take_nums_false.
  2:{ unfold pos_nums. constructor; [exact Hx|]. constructor; [exact Hy|]. apply (pos_vals_fin ex pidx n Hf Hl Hi). }
  assert (Hlen : length (pos_vals ex pidx) = ex_dims ex) by apply pos_vals_length.
  assert (Hfirst : firstn 4 (pos_nums p ex pidx) = pos_nums p ex pidx).
  { apply firstn_all2. unfold pos_nums. cbn [length]. lia. }
  rewrite Hfirst. unfold pos_nums. destruct p as [x y]. cbn [fst snd].
  assert (Hnext : next_extra mixed (pex ex pidx) first (pos_vals ex pidx) = Some (pex ex (S pidx))); [|rewrite Hnext; reflexivity].
  pose proof (ex_vals_chunk ex pidx n Hl Hi) as Hc.
  unfold pex. destruct (ex_dims ex) as [|d'] eqn:Ed.
  - destruct (pos_vals ex pidx); [|cbn in Hlen; lia]. reflexivity.
  - destruct pidx as [|pidx].
    + rewrite (H0 eq_refl). destruct (pos_vals ex 0) as [|v0 vs] eqn:Ev; [cbn in Hlen; lia|]. cbn [next_extra].
      f_equal. f_equal. rewrite Hlen. f_equal. rewrite Nat.mul_1_r.
      rewrite Hc. cbn [Nat.mul skipn]. reflexivity.
    + cbn [next_extra dims values]. f_equal. f_equal. f_equal.
      assert (Hpad : pad_dims (S d') (pos_vals ex (S pidx)) = pos_vals ex (S pidx)).
      { rewrite <- Hlen at 1. apply pad_self. }
      rewrite Hpad, Hc.
      replace (S d' * S (S pidx))%nat with (S d' * S pidx + S d')%nat by lia.
      rewrite firstn_add_skipn. rewrite (Nat.mul_comm (S pidx) (S d')). reflexivity.
Qed.

Lemma series_fold_back (mixed arr : bool) (ex : option extra) (n : nat) :
  (ex_dims ex <= 2)%nat -> length (ex_values ex) = (ex_dims ex * n)%nat -> vals_fin ex ->
  forall (ps : list fpt) (pidx : nat) (acc : list fpt) (first : bool),
  Forall fin_pt ps -> (pidx + length ps <= n)%nat -> (pidx = 0%nat -> first = true) ->
  fold_left (pos_step mixed arr)
    (map (fun pi => point_jv fmt (fst pi) ex (snd pi)) (combine ps (seq pidx (length ps))))
    (ROk (acc, pex ex pidx, first))
  = ROk (rev ps ++ acc, pex ex (pidx + length ps), match ps with [] => first | _ => false end).
Proof.
  intros Hd Hl Hf. induction ps as [|p ps IH]; intros pidx acc first Hps Hn H0.
  - cbn. rewrite Nat.add_0_r. reflexivity.
  - inversion Hps as [|? ? Hp Hps']; subst. cbn [length seq combine map fold_left fst snd] in *.
    rewrite (pos_step_back mixed arr first ex n pidx acc p Hd Hl Hf Hp); [|lia|exact H0].
    rewrite (IH (S pidx) (p :: acc) false Hps'); [|lia|lia].
    cbn [rev]. rewrite <- app_assoc. cbn [app]. f_equal. f_equal; [f_equal; f_equal; lia|destruct ps; reflexivity].
Qed.

Lemma pex_full (ex : option extra) (n : nat) : (0 < n)%nat -> length (ex_values ex) = (ex_dims ex * n)%nat ->
  pex ex n = coords_part ex.
Proof.
  intros Hn Hl. unfold pex, coords_part. destruct ex as [e|]; cbn [ex_dims ex_values] in *; [|reflexivity].
  destruct (dims e) as [|d] eqn:Ed; [reflexivity|]. destruct n as [|n]; [lia|].
  rewrite <- Hl, firstn_all. reflexivity.
Qed.

Lemma pex_start (ex : option extra) : pex ex 0 = None.
Proof. unfold pex. destruct (ex_dims ex); reflexivity. Qed.

Lemma ex_form_dims (n : nat) (ex : option extra) : ex_form n ex ->
  (ex_dims ex <= 2)%nat /\ length (ex_values ex) = (ex_dims ex * n)%nat.
Proof.
  destruct ex as [e|]; cbn [ex_form ex_dims ex_values]; [intros (A & B & _); split; assumption|split; [lia|reflexivity]].
Qed.

(* LineString / MultiLineString coordinates *)
Lemma parse_line_back (top : bool) (ps : list fpt) (ex : option extra) :
  (ps <> []) -> Forall fin_pt ps -> ex_form (length ps) ex -> vals_fin ex ->
  parse_line_coords top (Some (series_jv fmt ps ex 0)) = ROk (ps, coords_part ex).
Proof.
  intros Hne Hps Hex Hf. unfold series_jv. rewrite line_coords_arr, <- (pex_start ex).
  destruct (ex_form_dims _ ex Hex) as [Hd Hl].
  rewrite (series_fold_back MIXED_OK true ex (length ps) Hd Hl Hf ps 0 [] true Hps); [|lia|reflexivity].
  rewrite app_nil_r, rev_involutive. cbn [Nat.add]. rewrite pex_full; [reflexivity| |exact Hl].
  destruct ps; [congruence|cbn [length]; lia].
Qed.

Definition npts (rings : list (list fpt)) : nat := fold_right (fun r acc => (length r + acc)%nat) 0%nat rings.

Lemma rings_fold_back (ex : option extra) (n : nat) :
  (ex_dims ex <= 2)%nat -> length (ex_values ex) = (ex_dims ex * n)%nat -> vals_fin ex ->
  forall (rings : list (list fpt)) (pidx : nat) (racc : list (list fpt)) (first : bool),
  Forall (Forall fin_pt) rings -> Forall (fun r => r <> []) rings -> (pidx + npts rings <= n)%nat ->
  (pidx = 0%nat -> first = true) ->
  fold_left ring_step (rings_jv fmt rings ex pidx) (ROk (racc, pex ex pidx, first))
  = ROk (rev rings ++ racc, pex ex (pidx + npts rings), match rings with [] => first | _ => false end).
Proof.
  intros Hd Hl Hf. induction rings as [|r rings IH]; intros pidx racc first Hfin Hne Hn H0.
  - cbn. rewrite Nat.add_0_r. reflexivity.
  - inversion Hfin as [|? ? Hr Hfin']; subst. inversion Hne as [|? ? Hr0 Hne']; subst.
    cbn [rings_jv fold_left npts fold_right] in *. fold (npts rings) in *.
    unfold series_jv. rewrite ring_step_arr.
    rewrite (series_fold_back MIXED_OK false ex n Hd Hl Hf r pidx [] first Hr); [|lia|exact H0].
    rewrite app_nil_r, rev_involutive.
    rewrite (IH (pidx + length r)%nat (r :: racc) false Hfin' Hne'); [|lia|destruct r; [congruence|cbn [length]; lia]].
    cbn [rev]. rewrite <- app_assoc. cbn [app]. rewrite Nat.add_assoc. destruct rings; reflexivity.
Qed.

Lemma parse_poly_back (top : bool) (rings : list (list fpt)) (ex : option extra) :
  rings <> [] -> Forall (fun r => r <> []) rings -> Forall (Forall fin_pt) rings -> ex_form (npts rings) ex -> vals_fin ex ->
  parse_poly_coords top (Some (JArr (rings_jv fmt rings ex 0))) = ROk (rings, coords_part ex).
Proof.
  intros Hne Hr Hfin Hex Hf. rewrite poly_coords_arr, <- (pex_start ex).
  destruct (ex_form_dims _ ex Hex) as [Hd Hl].
  rewrite (rings_fold_back ex (npts rings) Hd Hl Hf rings 0 [] true Hfin Hr); [|lia|reflexivity].
  rewrite app_nil_r, rev_involutive. cbn [Nat.add]. rewrite pex_full; [reflexivity| |exact Hl].
  destruct rings as [|r rings]; [congruence|]. inversion Hr; subst. destruct r; [congruence|]. cbn. lia.
Qed.

Lemma scan_foreign (ms : list (jkey * jv)) : forall ks, forallb foreign_key ms = true ->
  fold_left scan_step ms ks = {| k_type := k_type ks; k_coords := k_coords ks; k_geoms := k_geoms ks; k_geom := k_geom ks;
                                k_feats := k_feats ks; k_foreign := k_foreign ks ++ ms |}.
Proof.
  induction ms as [|kv ms IH]; intros ks H.
  - cbn. rewrite app_nil_r. destruct ks; reflexivity.
  - cbn [forallb] in H. apply andb_true_iff in H. destruct H as [Hk Hms]. cbn [fold_left].
    rewrite (IH _ Hms). unfold foreign_key in Hk. cbv zeta in Hk. apply negb_true_iff in Hk.
    rewrite !orb_false_iff in Hk. destruct Hk as [[[[H1 H2] H3] H4] H5]. unfold scan_step. cbv zeta.
    rewrite H1, H2, H3, H4, H5. cbn [k_type k_coords k_geoms k_geom k_feats k_foreign].
    rewrite <- app_assoc. reflexivity.
Qed.

(* an object as the writers lay it out: "type", the kind's own member, then foreign members only *)
Lemma scan_coords_obj tv cv ms : forallb foreign_key ms = true ->
  scan_keys ((key s_type, tv) :: (key s_coordinates, cv) :: ms) =
  {| k_type := Some tv; k_coords := Some cv; k_geoms := None; k_geom := None; k_feats := None; k_foreign := ms |}.
Proof. intros H. unfold scan_keys. cbn [fold_left]. rewrite (scan_foreign ms _ H). reflexivity. Qed.
Lemma scan_geometry_obj tv cv ms : forallb foreign_key ms = true ->
  scan_keys ((key s_type, tv) :: (key s_geometry, cv) :: ms) =
  {| k_type := Some tv; k_coords := None; k_geoms := None; k_geom := Some cv; k_feats := None; k_foreign := ms |}.
Proof. intros H. unfold scan_keys. cbn [fold_left]. rewrite (scan_foreign ms _ H). reflexivity. Qed.
Lemma scan_geometries_obj tv cv ms : forallb foreign_key ms = true ->
  scan_keys ((key s_type, tv) :: (key s_geometries, cv) :: ms) =
  {| k_type := Some tv; k_coords := None; k_geoms := Some cv; k_geom := None; k_feats := None; k_foreign := ms |}.
Proof. intros H. unfold scan_keys. cbn [fold_left]. rewrite (scan_foreign ms _ H). reflexivity. Qed.
Lemma scan_features_obj tv cv ms : forallb foreign_key ms = true ->
  scan_keys ((key s_type, tv) :: (key s_features, cv) :: ms) =
  {| k_type := Some tv; k_coords := None; k_geoms := None; k_geom := None; k_feats := Some cv; k_foreign := ms |}.
Proof. intros H. unfold scan_keys. cbn [fold_left]. rewrite (scan_foreign ms _ H). reflexivity. Qed.

(* a collection of kind k: the member that parse_coll reads is the one the writers wrote *)
Lemma scan_coll_obj (k : Z) tv cv ms : 0 <= k <= 4 -> forallb foreign_key ms = true ->
  let ks := scan_keys ((key s_type, tv) :: (key (coll_key k), cv) :: ms) in
  k_type ks = Some tv /\ coll_src k ks = Some cv /\ k_foreign ks = ms.
Proof.
  intros Hk H. assert (K : k = 0 \/ k = 1 \/ k = 2 \/ k = 3 \/ k = 4) by lia.
  destruct K as [->|[->|[->|[->| ->]]]]; cbv zeta.
  - change (coll_key 0) with s_coordinates. rewrite (scan_coords_obj _ _ _ H). repeat split.
  - change (coll_key 1) with s_coordinates. rewrite (scan_coords_obj _ _ _ H). repeat split.
  - change (coll_key 2) with s_coordinates. rewrite (scan_coords_obj _ _ _ H). repeat split.
  - change (coll_key 3) with s_geometries. rewrite (scan_geometries_obj _ _ _ H). repeat split.
  - change (coll_key 4) with s_features. rewrite (scan_features_obj _ _ _ H). repeat split.
Qed.

Lemma tkind_coll (k : Z) : 0 <= k <= 4 -> tkind_of (coll_type k) = Some (TColl k).
Proof.
  intros Hk. assert (K : k = 0 \/ k = 1 \/ k = 2 \/ k = 3 \/ k = 4) by lia.
  destruct K as [->|[->|[->|[->| ->]]]]; reflexivity.
Qed.

Lemma first_member_app_none (name : list Z) (ms l : list (jkey * jv)) :
  first_member name ms = None -> first_member name (ms ++ l) = first_member name l.
Proof.
  unfold first_member. induction ms as [|kv ms IH]; [reflexivity|]. cbn [find app].
  match goal with |- context [if ?c then _ else _] => destruct c end; [intros H; discriminate H|]. exact IH.
Qed.

Lemma get2_props_default (b : list Z) (ms : list (jkey * jv)) :
  get2 s_properties b (ms ++ match first_member s_properties ms with Some _ => [] | None => [props_member] end)
  = get2 s_properties b ms.
Proof.
  destruct (first_member s_properties ms) as [v|] eqn:E; [rewrite app_nil_r; reflexivity|].
  unfold get2. rewrite (first_member_app_none _ _ _ E), E. reflexivity.
Qed.

Lemma circle_of_get2 (o : popts) (one : Z) (p : fpt) (m1 m2 : list (jkey * jv)) :
  (forall b, get2 s_properties b m1 = get2 s_properties b m2) -> circle_of o one p m1 = circle_of o one p m2.
Proof. intros H. unfold circle_of. rewrite !H. reflexivity. Qed.

Lemma extra_members_true (ex : option extra) :
  extra_members ex true = ex_members ex ++ match first_member s_properties (ex_members ex) with Some _ => [] | None => [props_member] end.
Proof. destruct ex as [[d v [ms|]]|]; reflexivity. Qed.

Lemma circle_of_default (o : popts) (one : Z) (p : fpt) (ex : option extra) :
  circle_of o one p (extra_members ex true) = circle_of o one p (ex_members ex).
Proof. apply circle_of_get2. intros b. rewrite extra_members_true. apply get2_props_default. Qed.

Definition check_ok (o : popts) (g : gobj) : Prop := require_valid o && negb (g_valid o g) = false.

Definition no_members (ex : option extra) : Prop := match ex with Some e => members e = None | None => True end.
Definition members_only (ex : option extra) : Prop := ex_form 0 ex /\ ex_dims ex = 0%nat.

Definition line_form (ps : list fpt) (ex : option extra) : Prop :=
  (2 <= length ps)%nat /\ Forall fin_pt ps /\ ex_form (length ps) ex /\ vals_fin ex.
Definition poly_form (rings : list (list fpt)) (ex : option extra) : Prop :=
  rings <> [] /\ forallb ring_ok rings = true /\ Forall (Forall fin_pt) rings /\ ex_form (npts rings) ex /\ vals_fin ex.
Definition rect_form (mn mx : fpt) : Prop :=
  fin_pt mn /\ fin_pt mx /\ fnum_ltb (fst mn) (fst mx) = true /\ fnum_ltb (snd mn) (snd mx) = true.

(* a child of a Multi* collection *)
Definition child_pf (k : Z) (c : gobj) : Prop :=
  match c with
  | JPoint p ex => k = 0 /\ ex_form 1 ex /\ no_members ex
  | JLine ps ex => k = 1 /\ line_form ps ex /\ no_members ex
  | JPoly rings ex => k = 2 /\ poly_form rings ex /\ no_members ex
  | _ => False
  end.

Definition not_circle (o : popts) (one : Z) (b : gobj) (ms : list (jkey * jv)) : Prop :=
  match b with
  | JPoint p _ | JSimple p => circle_of o one p ms = None
  | _ => True
  end.

Fixpoint pf (o : popts) (one : Z) (g : gobj) : Prop :=
  match g with
  | JPoint p ex => ex_form 1 ex /\ (ex = None -> allow_simple o = false) /\ check_ok o g
  | JSimple p => allow_simple o = true /\ check_ok o g
  | JRect mn mx => allow_rects o = true /\ rect_form mn mx /\ check_ok o g
  | JLine ps ex => line_form ps ex /\ check_ok o g
  | JPoly rings ex =>
      poly_form rings ex /\ (ex = None -> forall ext, rings = [ext] -> allow_rects o && perfect_rect ext = false) /\ check_ok o g
  | JFeature b ex => pf o one b /\ members_only ex /\ not_circle o one b (ex_members ex)
  | JColl k cs ex =>
      0 <= k <= 4 /\ members_only ex /\ (k < 3 -> check_ok o g) /\
      (fix all (l : list gobj) : Prop :=
         match l with [] => True | c :: r => (if k <? 3 then child_pf k c else pf o one c) /\ all r end) cs
  | JCircle c m => disable_circle o = false /\ fin m /\ check_ok o g
  end.

(* what Parse returns for the written tree: the object itself, a Feature having gained the default member *)
Fixpoint norm (g : gobj) : gobj :=
  match g with
  | JFeature b ex => JFeature (norm b) (Some {| dims := 0; values := []; members := Some (extra_members ex true) |})
  | JColl k cs ex => JColl k (if k <? 3 then cs else map norm cs) ex
  | _ => g
  end.

Fixpoint gdepth (g : gobj) : nat :=
  match g with
  | JFeature b _ => S (gdepth b)
  | JColl _ cs _ => S (fold_right (fun c acc => Nat.max (gdepth c) acc) 0%nat cs)
  | JCircle _ _ => 2%nat
  | _ => 1%nat
  end.

Lemma members_only_back (ex : option extra) : members_only ex -> with_members None (ex_members ex) = ex.
Proof.
  intros [Hf Hd]. rewrite <- (with_members_back 0 ex Hf) at 2. f_equal.
  destruct ex as [e|]; [|reflexivity]. cbn [ex_dims coords_part] in *. rewrite Hd. reflexivity.
Qed.

Lemma ex_form_foreign (n : nat) (ex : option extra) : ex_form n ex -> forallb foreign_key (ex_members ex) = true.
Proof.
  intros Hf. destruct ex as [[d v [ms|]]|]; cbn [ex_form ex_members members] in *; try reflexivity.
  destruct Hf as (_ & _ & _ & H). exact H.
Qed.

Lemma members_only_foreign (ex : option extra) : members_only ex -> forallb foreign_key (ex_members ex) = true.
Proof. intros [Hf _]. exact (ex_form_foreign 0 ex Hf). Qed.

Lemma coords_part_id (n : nat) (ex : option extra) : ex_form n ex -> no_members ex -> coords_part ex = ex.
Proof.
  destruct ex as [[d v ms]|]; [|reflexivity]. cbn [ex_form no_members coords_part dims values members].
  intros (_ & _ & Hm) ->. destruct d; [congruence|reflexivity].
Qed.

Lemma map_until_map {A B C} (f : B -> res C) (j : A -> B) (g : A -> C) (l : list A) :
  Forall (fun a => f (j a) = ROk (g a)) l -> map_until f (map j l) = ROk (map g l).
Proof. intros H. apply map_until_ok. induction H; constructor; assumption. Qed.

Lemma rt_point (o : popts) (one : Z) (p : fpt) (ex : option extra) (f : nat) :
  pf o one (JPoint p ex) -> parse (S f) o one (emit_jv fmt (JPoint p ex)) = POk (JPoint p ex).
Proof.
  intros (Hex & Hs & Hc). cbn [emit_jv]. rewrite parse_eq, extra_members_false, (scan_coords_obj _ _ _ (ex_form_foreign 1 ex Hex)).
  erewrite (parse_obj_typed _ _ _ _ _ _ TPoint) by reflexivity. cbn [parse_kind]. unfold parse_pt. cbn [k_coords k_foreign].
  rewrite (parse_point_back true p ex Hex), (with_members_back 1 ex Hex). cbv zeta.
  destruct ex as [e|]; [|rewrite (Hs eq_refl)]; exact (check_pass _ _ _ Hc).
Qed.

Lemma rt_simple (o : popts) (one : Z) (p : fpt) (f : nat) :
  pf o one (JSimple p) -> parse (S f) o one (emit_jv fmt (JSimple p)) = POk (JSimple p).
Proof.
  intros (Hs & Hc). cbn [emit_jv]. rewrite parse_eq, (scan_coords_obj _ _ [] eq_refl).
  erewrite (parse_obj_typed _ _ _ _ _ _ TPoint) by reflexivity. cbn [parse_kind]. unfold parse_pt. cbn [k_coords k_foreign].
  rewrite (parse_point_back true p None I). cbn [coords_part with_members].
  rewrite Hs. exact (check_pass _ _ _ Hc).
Qed.

Lemma fnum_eqb_refl (x : fnum) : fin x -> fnum_eqb x x = true.
Proof. destruct x; cbn; try contradiction. intros _. apply Z.eqb_refl. Qed.

Lemma rt_line (o : popts) (one : Z) (ps : list fpt) (ex : option extra) (f : nat) :
  pf o one (JLine ps ex) -> parse (S f) o one (emit_jv fmt (JLine ps ex)) = POk (JLine ps ex).
Proof.
  intros ((Hn & Hps & Hex & Hv) & Hc). cbn [emit_jv]. rewrite parse_eq, extra_members_false, (scan_coords_obj _ _ _ (ex_form_foreign _ ex Hex)).
  erewrite (parse_obj_typed _ _ _ _ _ _ TLine) by reflexivity. cbn [parse_kind]. unfold parse_ln. cbn [k_coords k_foreign].
  rewrite (parse_line_back true ps ex); [|destruct ps; [cbn in Hn; lia|congruence]|exact Hps|exact Hex|exact Hv].
  assert (Hlt : (length ps <? 2)%nat = false) by (apply Nat.ltb_ge; exact Hn). rewrite Hlt.
  rewrite (with_members_back _ ex Hex). exact (check_pass _ _ _ Hc).
Qed.

Lemma ring_ok_nonempty (rings : list (list fpt)) : forallb ring_ok rings = true -> Forall (fun r => r <> []) rings.
Proof.
  intros H. apply Forall_forall. intros r Hr. rewrite forallb_forall in H. specialize (H r Hr).
  unfold ring_ok in H. destruct r; [cbn in H; discriminate|congruence].
Qed.

Lemma rings_not_empty (rings : list (list fpt)) : rings <> [] -> forallb ring_ok rings = true -> rings_empty rings = false.
Proof.
  intros Hne H. destruct rings as [|e rest]; [congruence|]. cbn [forallb] in H. apply andb_true_iff in H. destruct H as [He _].
  unfold ring_ok in He. apply andb_true_iff in He. destruct He as [He _]. cbn [rings_empty].
  apply Nat.ltb_ge. apply Nat.leb_le in He. lia.
Qed.

Lemma rt_poly (o : popts) (one : Z) (rings : list (list fpt)) (ex : option extra) (f : nat) :
  pf o one (JPoly rings ex) -> parse (S f) o one (emit_jv fmt (JPoly rings ex)) = POk (JPoly rings ex).
Proof.
  intros ((Hne & Hok & Hfin & Hex & Hv) & Hr & Hc). cbn [emit_jv]. rewrite parse_eq, extra_members_false, (scan_coords_obj _ _ _ (ex_form_foreign _ ex Hex)).
  erewrite (parse_obj_typed _ _ _ _ _ _ TPoly) by reflexivity. cbn [parse_kind]. unfold parse_pg. cbn [k_coords k_foreign]. rewrite (rings_not_empty rings Hne Hok).
  rewrite (parse_poly_back true rings ex Hne (ring_ok_nonempty rings Hok) Hfin Hex Hv).
  destruct rings as [|ext holes]; [congruence|]. rewrite Hok. cbn [negb].
  rewrite (with_members_back _ ex Hex). cbv zeta.
  destruct ex as [e|]; [exact (check_pass _ _ _ Hc)|]. destruct holes as [|h holes]; [|exact (check_pass _ _ _ Hc)].
  rewrite (Hr eq_refl ext eq_refl). exact (check_pass _ _ _ Hc).
Qed.

Lemma fin_FV (x : fnum) : fin x -> exists k, x = FV k.
Proof. destruct x; [eexists; reflexivity|contradiction|contradiction]. Qed.

Lemma rt_rect (o : popts) (one : Z) (mn mx : fpt) (f : nat) :
  pf o one (JRect mn mx) -> parse (S f) o one (emit_jv fmt (JRect mn mx)) = POk (JRect mn mx).
Proof.
  intros (Ha & ((Hmn1 & Hmn2) & (Hmx1 & Hmx2) & Hx & Hy) & Hc). cbn [emit_jv]. rewrite parse_eq, (scan_coords_obj _ _ [] eq_refl).
  erewrite (parse_obj_typed _ _ _ _ _ _ TPoly) by reflexivity. cbn [parse_kind]. unfold parse_pg. cbn [k_coords k_foreign].
  change (JArr [series_jv fmt (fpt_rect_points mn mx) None 0]) with (JArr (rings_jv fmt [fpt_rect_points mn mx] None 0)).
  destruct mn as [x1 y1], mx as [x2 y2]. cbn [fst snd] in *.
  destruct (fin_FV x1 Hmn1) as [a ->], (fin_FV y1 Hmn2) as [b ->], (fin_FV x2 Hmx1) as [c ->], (fin_FV y2 Hmx2) as [d ->].
  rewrite (parse_poly_back true [fpt_rect_points (FV a, FV b) (FV c, FV d)] None).
  2:{ congruence. }
  2:{ repeat constructor. unfold fpt_rect_points. congruence. }
  2:{ repeat constructor. }
  2:{ exact I. }
  2:{ constructor. }
  cbn [fnum_ltb] in Hx, Hy.
  assert (Hrok : forallb ring_ok [fpt_rect_points (FV a, FV b) (FV c, FV d)] = true).
  { unfold ring_ok, fpt_rect_points, fpt_eqb. cbn [forallb length Nat.leb last fst snd fnum_eqb]. rewrite !Z.eqb_refl. reflexivity. }
  rewrite Hrok. cbn [negb coords_part with_members]. rewrite Ha.
  assert (Hp : perfect_rect (fpt_rect_points (FV a, FV b) (FV c, FV d)) = true).
  { unfold perfect_rect, fpt_rect_points. cbn [fst snd fnum_eqb fnum_ltb]. rewrite !Z.eqb_refl, Hx, Hy. reflexivity. }
  rewrite Hp. cbn [andb fpt_rect_points nth fst snd]. exact (check_pass _ _ _ Hc).
Qed.

Lemma first_member_hit (k : list Z) (v : jv) (ms : list (jkey * jv)) : first_member k ((key k, v) :: ms) = Some v.
Proof. unfold first_member. cbn [find key fst snd]. rewrite bytes_eqb_refl. reflexivity. Qed.

Lemma rt_circle (o : popts) (one : Z) (c : fpt) (m : fnum) (f : nat) :
  pf o one (JCircle c m) -> parse (S (S f)) o one (emit_jv fmt (JCircle c m)) = POk (JCircle c m).
Proof.
  intros (Hd & Hm & Hc). destruct m as [k| |]; cbn [fin] in Hm; try contradiction.
  cbn [emit_jv]. set (pm := (key s_properties, JObj [(key s_type, str_jv s_Circle); (key s_radius, num_jv fmt (FV k)); (key s_radius_units, str_jv s_m)])).
  set (geom := JObj [(key s_type, str_jv s_Point); (key s_coordinates, JArr [num_jv fmt (fst c); num_jv fmt (snd c)])]).
  assert (Hg : parse (S f) o one geom = POk (if allow_simple o then JSimple c else JPoint c None)).
  { subst geom. rewrite parse_eq, (scan_coords_obj _ _ [] eq_refl).
    erewrite (parse_obj_typed _ _ _ _ _ _ TPoint) by reflexivity. cbn [parse_kind]. unfold parse_pt. cbn [k_coords k_foreign].
    change (JArr [num_jv fmt (fst c); num_jv fmt (snd c)]) with (point_jv fmt c None 0).
    rewrite (parse_point_back true c None I). cbn [coords_part with_members].
    destruct (allow_simple o); apply check_pass; exact Hc. }
  set (f1 := S f) in *. clearbody f1.
  rewrite parse_eq, (scan_geometry_obj _ _ [pm] eq_refl).
  erewrite (parse_obj_typed _ _ _ _ _ _ TFeature) by reflexivity. cbn [parse_kind]. unfold parse_ft. cbn [k_geom k_foreign]. rewrite Hg.
  assert (Hcirc : circle_of o one c [pm] = Some (POk (JCircle c (FV k)))).
  { unfold circle_of. rewrite Hd. subst pm. unfold get2. rewrite !first_member_hit.
    cbn [first_member find key fst snd str_jv str_of num_jv]. reflexivity. }
  destruct (allow_simple o); cbn [circ_of CIRCLE_SIMPLE_OK]; rewrite Hcirc; reflexivity.
Qed.

Lemma multi_child_back (k : Z) (c : gobj) : child_pf k c -> multi_child k (coords_jv fmt c) = ROk c.
Proof.
  destruct c as [p ex|p|mn mx|ps ex|rings ex|b ex|k' cs ex|cc m]; cbn [child_pf]; try contradiction; intros (-> & Hf & Hm); cbn [coords_jv].
  - change (multi_child 0) with child_point. unfold child_point.
    rewrite (parse_point_back false p ex Hf), (coords_part_id 1 ex Hf Hm). reflexivity.
  - change (multi_child 1) with child_line. unfold child_line. destruct Hf as (Hn & Hps & Hex & Hv).
    rewrite (parse_line_back false ps ex); [|destruct ps; [cbn in Hn; lia|congruence]|exact Hps|exact Hex|exact Hv].
    assert (Hlt : (length ps <? 2)%nat = false) by (apply Nat.ltb_ge; exact Hn). rewrite Hlt.
    rewrite (coords_part_id _ ex Hex Hm). reflexivity.
  - change (multi_child 2) with child_poly. unfold child_poly. destruct Hf as (Hne & Hok & Hfin & Hex & Hv).
    rewrite (rings_not_empty rings Hne Hok), (parse_poly_back false rings ex Hne (ring_ok_nonempty rings Hok) Hfin Hex Hv).
    destruct rings as [|e r]; [congruence|]. rewrite Hok, (coords_part_id _ ex Hex Hm). reflexivity.
Qed.

Lemma pf_coll_children (o : popts) (one : Z) (k : Z) (cs : list gobj) (ex : option extra) :
  pf o one (JColl k cs ex) -> Forall (fun c => if k <? 3 then child_pf k c else pf o one c) cs.
Proof.
  cbn [pf]. intros (_ & _ & _ & H). apply all_Forall in H. exact H.
Qed.

Lemma extra_members_true_ne (ex : option extra) : exists m ms, extra_members ex true = m :: ms.
Proof.
  rewrite extra_members_true. destruct (ex_members ex) as [|m ms]; [cbn; eexists; eexists; reflexivity|].
  cbn [app]. eexists; eexists; reflexivity.
Qed.

Lemma extra_members_true_foreign (ex : option extra) : members_only ex -> forallb foreign_key (extra_members ex true) = true.
Proof.
  intros H. rewrite extra_members_true, forallb_app, (members_only_foreign ex H).
  destruct (first_member s_properties (ex_members ex)); reflexivity.
Qed.

Lemma depth_children_le (cs : list gobj) (c : gobj) : In c cs ->
  (gdepth c <= fold_right (fun c acc => Nat.max (gdepth c) acc) 0%nat cs)%nat.
Proof.
  induction cs as [|x cs IH]; [contradiction|]. intros [->|H]; cbn [fold_right]; [lia|]. specialize (IH H). lia.
Qed.

Theorem parse_emit_fixpoint (o : popts) (one : Z) (g : gobj) :
  pf o one g -> forall fuel, (gdepth g <= fuel)%nat -> parse fuel o one (emit_jv fmt g) = POk (norm g).
Proof.
  induction g as [p ex|p|mn mx|ps ex|rings ex|b ex IHb|k cs ex IHcs|c m] using gobj_ind'; intros Hpf fuel Hfuel;
    (destruct fuel as [|f]; [cbn [gdepth] in Hfuel; lia|]).
  - apply rt_point; exact Hpf.
  - apply rt_simple; exact Hpf.
  - apply rt_rect; exact Hpf.
  - apply rt_line; exact Hpf.
  - apply rt_poly; exact Hpf.
  - destruct Hpf as (Hb & Hm & Hnc). cbn [gdepth] in Hfuel.
    specialize (IHb Hb f ltac:(lia)).
    pose proof (extra_members_true_foreign ex Hm) as Hfk.
    cbn [emit_jv norm]. rewrite parse_eq, (scan_geometry_obj _ _ _ Hfk).
    erewrite (parse_obj_typed _ _ _ _ _ _ TFeature) by reflexivity. cbn [parse_kind]. unfold parse_ft. cbn [k_geom k_foreign]. rewrite IHb.
    assert (Hcirc : circ_of o one (norm b) (extra_members ex true) = None).
    { destruct b; cbn [norm not_circle circ_of CIRCLE_SIMPLE_OK] in *; try reflexivity;
        destruct (extra_members ex true) eqn:E; try reflexivity; rewrite <- E, circle_of_default; exact Hnc. }
    rewrite Hcirc. destruct (extra_members_true_ne ex) as (m0 & ms0 & E). rewrite E. reflexivity.
  - (* collections: the children of a Multi* are read back from their coordinates, the others by Parse itself *)
    pose proof (pf_coll_children o one k cs ex Hpf) as Hch.
    destruct Hpf as (Hk & Hm & Hc & _). cbn [gdepth] in Hfuel.
    cbn [emit_jv norm]. rewrite parse_eq, extra_members_false.
    destruct (scan_coll_obj k (str_jv (coll_type k)) (JArr (map (fun c => if k <? 3 then coords_jv fmt c else emit_jv fmt c) cs))
                (ex_members ex) Hk (members_only_foreign ex Hm)) as (Et & Es & Ef).
    rewrite (parse_obj_typed _ _ _ _ _ _ _ Et (tkind_coll k Hk)). cbn [parse_kind].
    unfold parse_coll, coll_child. rewrite Es, Ef, (members_only_back ex Hm). cbn [is_array negb elems].
    destruct (k <? 3) eqn:E3.
    + rewrite (map_until_map _ (coords_jv fmt) (fun c => c) cs).
      2:{ eapply Forall_impl; [|exact Hch]. intros c Hcc. apply multi_child_back. exact Hcc. }
      rewrite map_id. apply Z.ltb_lt in E3. exact (check_pass _ _ _ (Hc E3)).
    + rewrite (map_until_map _ (emit_jv fmt) norm cs); [reflexivity|].
      rewrite Forall_forall in *. intros c Hin. rewrite (IHcs c Hin (Hch c Hin) f); [reflexivity|].
      pose proof (depth_children_le cs c Hin). lia.
  - destruct f as [|f]; [cbn [gdepth] in Hfuel; lia|]. apply rt_circle; exact Hpf.
Qed.

Lemma first_member_app_some (name : list Z) (ms l : list (jkey * jv)) (v : jv) :
  first_member name ms = Some v -> first_member name (ms ++ l) = Some v.
Proof.
  unfold first_member. induction ms as [|kv ms IH]; [discriminate|]. cbn [find app].
  match goal with |- context [if ?c then _ else _] => destruct c end; [intros H; exact H|]. exact IH.
Qed.

Lemma extra_members_true_has_props (ex : option extra) : exists v, first_member s_properties (extra_members ex true) = Some v.
Proof.
  rewrite extra_members_true. destruct (first_member s_properties (ex_members ex)) as [v|] eqn:E.
  - exists v. rewrite app_nil_r. exact E.
  - rewrite (first_member_app_none _ _ _ E). eexists. reflexivity.
Qed.

Lemma extra_members_norm (ex : option extra) :
  extra_members (Some {| dims := 0; values := []; members := Some (extra_members ex true) |}) true = extra_members ex true.
Proof.
  destruct (extra_members_true_has_props ex) as [v Hv]. cbn [extra_members members]. rewrite Hv. apply app_nil_r.
Qed.

Theorem norm_same_tree (g : gobj) : emit_jv fmt (norm g) = emit_jv fmt g.
Proof.
  induction g as [p ex|p|mn mx|ps ex|rings ex|b ex IHb|k cs ex IHcs|c m] using gobj_ind'; try reflexivity.
  - cbn [norm emit_jv]. rewrite IHb, extra_members_norm. reflexivity.
  - cbn [norm emit_jv]. destruct (k <? 3); [reflexivity|]. rewrite map_map. do 5 f_equal.
    apply map_ext_in. intros c Hc. rewrite Forall_forall in IHcs. apply IHcs. exact Hc.
Qed.

Theorem norm_idempotent (g : gobj) : norm (norm g) = norm g.
Proof.
  induction g as [p ex|p|mn mx|ps ex|rings ex|b ex IHb|k cs ex IHcs|c m] using gobj_ind'; try reflexivity.
  - cbn [norm]. rewrite IHb, extra_members_norm. reflexivity.
  - cbn [norm]. destruct (k <? 3); [reflexivity|]. rewrite map_map. f_equal.
    apply map_ext_in. intros c Hc. rewrite Forall_forall in IHcs. apply IHcs. exact Hc.
Qed.

(* Parse -> JSON -> Parse: the second Parse returns g' = norm g, g' writes the same tree as g, and Parse of
   that tree returns g' again *)
Theorem parse_emit_parse (o : popts) (one : Z) (g : gobj) (fuel : nat) :
  pf o one g -> (gdepth g <= fuel)%nat ->
  parse fuel o one (emit_jv fmt g) = POk (norm g) /\
  emit_jv fmt (norm g) = emit_jv fmt g /\
  parse fuel o one (emit_jv fmt (norm g)) = POk (norm g).
Proof.
  intros Hpf Hf. pose proof (parse_emit_fixpoint o one g Hpf fuel Hf) as H. repeat split; [exact H|apply norm_same_tree|].
  rewrite norm_same_tree. exact H.
Qed.

End RT.

Print Assumptions parse_emit_fixpoint.
Print Assumptions parse_emit_parse.
