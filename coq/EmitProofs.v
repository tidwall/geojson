(* EmitProofs.v — property C17, the main claim: the bytes written by the
   AppendJSON writers (Json.emit, byte level: literal prefixes, the member
   splice, position index threading) are exactly the minified text of a JSON
   tree [emit_jv o] — an object whose first member is "type" with the kind's
   GeoJSON name — for every well-formed object and every number formatter. *)
From GJ Require Import Base JsonConst Json JsonProofs.
Open Scope Z_scope.

Lemma join_cons2 (a b : list Z) (l : list (list Z)) : join_comma (a :: b :: l) = a ++ 44 :: join_comma (b :: l).
Proof. reflexivity. Qed.

Lemma join_flat (a : list Z) (l : list (list Z)) : join_comma (a :: l) = a ++ flat_map (fun x => 44 :: x) l.
Proof.
  revert a. induction l as [|b l IH]; intros a; [cbn; rewrite app_nil_r; reflexivity|].
  rewrite join_cons2, IH. cbn [flat_map]. rewrite <- app_comm_cons. reflexivity.
Qed.

Lemma join_app (l1 l2 : list (list Z)) : l1 <> [] ->
  join_comma (l1 ++ l2) = join_comma l1 ++ match l2 with [] => [] | _ => 44 :: join_comma l2 end.
Proof.
  intros H. destruct l1 as [|a l1]; [congruence|]. clear H.
  revert a. induction l1 as [|b l1 IH]; intros a.
  - cbn [app]. destruct l2 as [|c l2]; [cbn; rewrite app_nil_r; reflexivity|reflexivity].
  - change ((a :: b :: l1) ++ l2) with (a :: (b :: l1) ++ l2).
    change ((b :: l1) ++ l2) with (b :: l1 ++ l2). rewrite join_cons2.
    change (b :: l1 ++ l2) with ((b :: l1) ++ l2). rewrite IH, join_cons2.
    rewrite <- app_assoc. reflexivity.
Qed.

(* right-nest the appends; the conses in between are moved by computation, not one rewrite each *)
Ltac norm_app := cbn [app]; repeat (rewrite <- !app_assoc; cbn [app]).

Section Emit.
Variable fmt : Z -> list Z.

Definition num_jv (f : fnum) : jv :=
  match f with FV k => JNum (fmt k) (FV k) | FNull => JNull | FBad => JNum bad_token FBad end.

Definition key (s : list Z) : jkey := (s, s).
Definition str_jv (s : list Z) : jv := JStr s s.

Definition point_jv (p : fpt) (ex : option extra) (idx : nat) : jv :=
  let d := ex_dims ex in
  JArr (num_jv (fst p) :: num_jv (snd p) :: map (fun i => num_jv (ex_value ex (idx * d + i))) (seq 0 d)).

Definition series_jv (ps : list fpt) (ex : option extra) (pidx : nat) : jv :=
  JArr (map (fun pi => point_jv (fst pi) ex (snd pi)) (combine ps (seq pidx (length ps)))).

Fixpoint rings_jv (rings : list (list fpt)) (ex : option extra) (pidx : nat) : list jv :=
  match rings with
  | [] => []
  | r :: rest => series_jv r ex pidx :: rings_jv rest ex (pidx + length r)
  end.

Definition props_member : jkey * jv := (key s_properties, JObj []).

Definition extra_members (ex : option extra) (props_required : bool) : list (jkey * jv) :=
  let dflt := if props_required then [props_member] else [] in
  match ex with
  | Some e =>
      match members e with
      | Some ms => ms ++ (if props_required then match first_member s_properties ms with Some _ => [] | None => [props_member] end else [])
      | None => dflt
      end
  | None => dflt
  end.

Definition coords_jv (c : gobj) : jv :=
  match c with
  | JPoint p ex => point_jv p ex 0
  | JSimple p => point_jv p None 0
  | JLine ps ex => series_jv ps ex 0
  | JPoly rings ex => JArr (if rings_empty rings then [] else rings_jv rings ex 0)
  | JRect mn mx => JArr [series_jv (fpt_rect_points mn mx) None 0]
  | _ => JNull
  end.

Definition coll_type (k : Z) : list Z :=
  if k =? 0 then s_MultiPoint else if k =? 1 then s_MultiLineString else if k =? 2 then s_MultiPolygon
  else if k =? 3 then s_GeometryCollection else s_FeatureCollection.
Definition coll_key (k : Z) : list Z :=
  if k <? 3 then s_coordinates else if k =? 3 then s_geometries else s_features.

Fixpoint emit_jv (o : gobj) : jv :=
  match o with
  | JPoint p ex => JObj ((key s_type, str_jv s_Point) :: (key s_coordinates, point_jv p ex 0) :: extra_members ex false)
  | JSimple p => JObj [(key s_type, str_jv s_Point); (key s_coordinates, point_jv p None 0)]
  | JRect mn mx => JObj [(key s_type, str_jv s_Polygon); (key s_coordinates, JArr [series_jv (fpt_rect_points mn mx) None 0])]
  | JLine ps ex => JObj ((key s_type, str_jv s_LineString) :: (key s_coordinates, series_jv ps ex 0) :: extra_members ex false)
  | JPoly rings ex =>
      JObj ((key s_type, str_jv s_Polygon)
            :: (key s_coordinates, JArr (if rings_empty rings then [] else rings_jv rings ex 0)) :: extra_members ex false)
  | JFeature b ex => JObj ((key s_type, str_jv s_Feature) :: (key s_geometry, emit_jv b) :: extra_members ex true)
  | JColl k cs ex =>
      JObj ((key s_type, str_jv (coll_type k))
            :: (key (coll_key k), JArr (map (fun c => if k <? 3 then coords_jv c else emit_jv c) cs)) :: extra_members ex false)
  | JCircle c m =>
      JObj [(key s_type, str_jv s_Feature);
            (key s_geometry, JObj [(key s_type, str_jv s_Point); (key s_coordinates, JArr [num_jv (fst c); num_jv (snd c)])]);
            (key s_properties, JObj [(key s_type, str_jv s_Circle); (key s_radius, num_jv m); (key s_radius_units, str_jv s_m)])]
  end.

(* well-formed objects: a stored members text is an object with at least one
   member (what Parse and, after the repair of F9, NewFeature guarantee), and the
   children of a Multi* collection are geometries of the matching kind *)
Definition ex_ok (ex : option extra) : Prop :=
  match ex with Some e => match members e with Some ms => ms <> [] | None => True end | None => True end.

Definition multi_child_ok (c : gobj) : Prop :=
  match c with
  | JPoint _ ex | JLine _ ex | JPoly _ ex => ex_ok ex
  | JSimple _ | JRect _ _ => True
  | _ => False
  end.

Fixpoint wf_o (o : gobj) : Prop :=
  match o with
  | JPoint _ ex | JLine _ ex | JPoly _ ex => ex_ok ex
  | JSimple _ | JRect _ _ | JCircle _ _ => True
  | JFeature b ex => ex_ok ex /\ wf_o b
  | JColl k cs ex =>
      0 <= k <= 4 /\ ex_ok ex /\
      (fix all (l : list gobj) : Prop :=
         match l with [] => True | c :: r => (if k <? 3 then multi_child_ok c else wf_o c) /\ all r end) cs
  end.

Lemma print_num (f : fnum) : print_min (num_jv f) = emit_float fmt f.
Proof. destruct f; reflexivity. Qed.

Lemma print_point (p : fpt) (ex : option extra) (idx : nat) :
  print_min (point_jv p ex idx) = emit_point fmt p ex idx.
Proof.
  unfold point_jv, emit_point. cbv zeta. cbn [print_min map].
  rewrite join_cons2, join_flat, !print_num, !map_map, flat_map_map.
  rewrite (flat_map_ext _ (fun i => 44 :: emit_float fmt (ex_value ex (idx * ex_dims ex + i))))
    by (intros i; rewrite print_num; reflexivity).
  norm_app. reflexivity.
Qed.

Lemma print_series (ps : list fpt) (ex : option extra) (pidx : nat) :
  print_min (series_jv ps ex pidx) = fst (emit_series fmt ps ex pidx).
Proof.
  unfold series_jv, emit_series. cbn [print_min fst]. rewrite map_map.
  f_equal. f_equal. f_equal. apply map_ext. intros pi. apply print_point.
Qed.

Lemma print_rings (rings : list (list fpt)) (ex : option extra) : forall pidx,
  map print_min (rings_jv rings ex pidx) = emit_rings fmt rings ex pidx.
Proof.
  induction rings as [|r rest IH]; intros pidx; [reflexivity|].
  cbn [rings_jv map emit_rings]. rewrite print_series, IH.
  unfold emit_series. cbn [fst]. reflexivity.
Qed.

Definition splice (l : list (jkey * jv)) : list Z :=
  match l with [] => [] | _ => 44 :: join_comma (map member_text l) end.

Lemma props_default_eq : props_default = 44 :: member_text props_member.
Proof. reflexivity. Qed.

(* the member splice: a leading comma and the members' texts, nothing when there is nothing to add *)
Lemma print_extra (ex : option extra) (props : bool) : ex_ok ex ->
  emit_extra ex props = splice (extra_members ex props).
Proof.
  intros Hok. unfold emit_extra, extra_members, splice.
  destruct ex as [e|]; [|destruct props; reflexivity].
  destruct (members e) as [ms|] eqn:E; [|destruct props; reflexivity].
  cbn [ex_ok] in Hok. rewrite E in Hok.
  destruct ms as [|m ms]; [congruence|].
  destruct props.
  - destruct (first_member s_properties (m :: ms)).
    + rewrite !app_nil_r. reflexivity.
    + cbn [app]. change (m :: ms ++ [props_member]) with ((m :: ms) ++ [props_member]).
      rewrite map_app, join_app by discriminate. cbn [map join_comma]. rewrite props_default_eq. reflexivity.
  - rewrite !app_nil_r. reflexivity.
Qed.

(* an object text: '{' two fixed members, the spliced ones, '}' *)
Lemma print_obj2 (m1 m2 : jkey * jv) (rest : list (jkey * jv)) :
  print_min (JObj (m1 :: m2 :: rest)) =
  123 :: member_text m1 ++ 44 :: member_text m2 ++ splice rest ++ [125].
Proof.
  cbn [print_min]. change (fun kv : jkey * jv => 34 :: fst (fst kv) ++ 34 :: 58 :: print_min (snd kv)) with member_text.
  change (m1 :: m2 :: rest) with ([m1; m2] ++ rest). rewrite map_app, join_app by discriminate.
  unfold splice, member_text. cbn [map join_comma]. destruct rest; cbn [map]; norm_app; reflexivity.
Qed.

Lemma member_text_eq (k : list Z) (v : jv) : member_text (key k, v) = 34 :: k ++ 34 :: 58 :: print_min v.
Proof. reflexivity. Qed.

Lemma print_coords (c : gobj) : multi_child_ok c -> print_min (coords_jv c) = child_coords fmt c.
Proof.
  destruct c as [p ex|p|mn mx|ps ex|rings ex|b ex|k cs ex|c m]; cbn [multi_child_ok coords_jv child_coords]; intros H;
    try contradiction.
  - apply print_point.
  - apply print_point.
  - cbn [print_min map join_comma]. rewrite print_series. reflexivity.
  - apply print_series.
  - cbn [print_min]. destruct (rings_empty rings); [reflexivity|]. rewrite print_rings. reflexivity.
Qed.

(* LineString, Polygon and the collections test for an extra before calling appendJSONExtra: no difference *)
Lemma emit_extra_opt (ex : option extra) : match ex with Some _ => emit_extra ex false | None => [] end = emit_extra ex false.
Proof. destruct ex; reflexivity. Qed.

(* the literal prefixes are the texts of the first members *)
Lemma pre_Point_eq X : pre_Point ++ X = 123 :: member_text (key s_type, str_jv s_Point) ++ 44 :: 34 :: s_coordinates ++ 34 :: 58 :: X.
Proof. reflexivity. Qed.
Lemma pre_LineString_eq X : pre_LineString ++ X = 123 :: member_text (key s_type, str_jv s_LineString) ++ 44 :: 34 :: s_coordinates ++ 34 :: 58 :: X.
Proof. reflexivity. Qed.
Lemma pre_Polygon_eq X : pre_Polygon ++ X = 123 :: member_text (key s_type, str_jv s_Polygon) ++ 44 :: 34 :: s_coordinates ++ 34 :: 58 :: 91 :: X.
Proof. reflexivity. Qed.
Lemma pre_Feature_eq X : pre_Feature ++ X = 123 :: member_text (key s_type, str_jv s_Feature) ++ 44 :: 34 :: s_geometry ++ 34 :: 58 :: X.
Proof. reflexivity. Qed.

Lemma wf_coll_children (k : Z) (cs : list gobj) (ex : option extra) :
  wf_o (JColl k cs ex) -> 0 <= k <= 4 /\ ex_ok ex /\ Forall (fun c => if k <? 3 then multi_child_ok c else wf_o c) cs.
Proof. cbn [wf_o]. intros [Hk [He H]]. apply all_Forall in H. split; [exact Hk|]. split; [exact He|exact H]. Qed.

Theorem emit_is_print (o : gobj) : wf_o o -> emit fmt o = print_min (emit_jv o).
Proof.
  induction o as [p ex|p|mn mx|ps ex|rings ex|b ex IH|k cs ex IH|c m] using gobj_ind'; intros Hw.
  - cbn [wf_o] in Hw. cbn [emit emit_jv]. rewrite print_obj2, (print_extra ex false Hw), pre_Point_eq, !member_text_eq, print_point.
    norm_app. reflexivity.
  - cbn [emit emit_jv]. rewrite print_obj2, pre_Point_eq, !member_text_eq, print_point. unfold splice. norm_app. reflexivity.
  - cbn [emit emit_jv]. rewrite print_obj2, pre_Polygon_eq, !member_text_eq. cbn [print_min map join_comma]. rewrite print_series.
    unfold splice. norm_app. reflexivity.
  - cbn [wf_o] in Hw. cbn [emit emit_jv].
    rewrite emit_extra_opt, print_obj2, (print_extra ex false Hw), pre_LineString_eq, !member_text_eq, print_series.
    norm_app. reflexivity.
  - cbn [wf_o] in Hw. cbn [emit emit_jv]. rewrite print_obj2, pre_Polygon_eq, !member_text_eq. cbn [print_min].
    assert (E : (if rings_empty rings then [] else join_comma (emit_rings fmt rings ex 0))
                = join_comma (map print_min (if rings_empty rings then [] else rings_jv rings ex 0))).
    { destruct (rings_empty rings); [reflexivity|]. rewrite print_rings. reflexivity. }
    rewrite E, emit_extra_opt, (print_extra ex false Hw). norm_app. reflexivity.
  - cbn [wf_o] in Hw. destruct Hw as [He Hb]. cbn [emit emit_jv].
    rewrite print_obj2, (print_extra ex true He), pre_Feature_eq, !member_text_eq, (IH Hb). norm_app. reflexivity.
  - destruct (wf_coll_children k cs ex Hw) as [Hk [He Hc]]. cbn [emit emit_jv].
    rewrite print_obj2, !member_text_eq. cbn [print_min]. rewrite map_map.
    assert (E : map (fun c => if k <? 3 then child_coords fmt c else emit fmt c) cs
                = map (fun c => print_min (if k <? 3 then coords_jv c else emit_jv c)) cs).
    { clear Hw. induction cs as [|c cs IHc]; [reflexivity|]. inversion IH; inversion Hc; subst. cbn [map].
      f_equal; [|apply IHc; assumption].
      destruct (k <? 3); [symmetry; apply print_coords; assumption|auto]. }
    rewrite E.
    assert (Pre : (if k =? 0 then pre_MultiPoint else if k =? 1 then pre_MultiLineString else if k =? 2 then pre_MultiPolygon
                   else if k =? 3 then pre_GeometryCollection else pre_FeatureCollection)
                  = 123 :: (34 :: s_type ++ 34 :: 58 :: print_min (str_jv (coll_type k))) ++ 44 :: 34 :: coll_key k ++ [34; 58; 91]).
    { assert (K : k = 0 \/ k = 1 \/ k = 2 \/ k = 3 \/ k = 4) by lia.
      destruct K as [->|[->|[->|[->| ->]]]]; reflexivity. }
    rewrite Pre, emit_extra_opt, (print_extra ex false He). norm_app. reflexivity.
  - (* the three numbers are printed by the same function on both sides: no need to look inside them; the three
       nested objects are opened one by one, so that their constant members stay folded while the appends are re-nested *)
    cbn [emit emit_jv]. rewrite <- !print_num, print_obj2, (member_text_eq s_geometry), print_obj2, (member_text_eq s_coordinates).
    cbn [splice map join_comma]. rewrite (member_text_eq s_properties), print_obj2, (member_text_eq s_radius).
    cbn [print_min splice map join_comma].
    generalize (print_min (num_jv (fst c))) (print_min (num_jv (snd c))) (print_min (num_jv m)). intros X Y R.
    norm_app. reflexivity.
Qed.

(* the tree is an object whose first member is "type" with the kind's GeoJSON name *)
Definition type_name (o : gobj) : list Z :=
  match o with
  | JPoint _ _ | JSimple _ => s_Point
  | JRect _ _ | JPoly _ _ => s_Polygon
  | JLine _ _ => s_LineString
  | JFeature _ _ | JCircle _ _ => s_Feature
  | JColl k _ _ => coll_type k
  end.

Theorem emit_jv_type (o : gobj) : exists rest, emit_jv o = JObj ((key s_type, str_jv (type_name o)) :: rest).
Proof. destruct o; cbn [emit_jv type_name]; eexists; reflexivity. Qed.

End Emit.

Print Assumptions emit_is_print.
Print Assumptions emit_jv_type.
